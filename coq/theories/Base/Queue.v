(* Priority request queues shared by all store models: `q.append(r); q.sort(key=prio)` with a
   stable sort is insertion behind every request whose priority is <= the new one.  The service
   key is (priority, arrival number); tokens are allocated in arrival order, so the token number
   is the arrival number. *)
From Coq Require Import List ZArith Lia Bool Arith Sorted.
From FV Require Import ListLemmas.
Import ListNotations.

Section Q.
  Context {A : Type} (prio : A -> Z) (tk : A -> nat).

  Fixpoint gins (r : A) (q : list A) : list A :=
    match q with
    | [] => [r]
    | x :: q' => if (prio r <? prio x)%Z then r :: q else x :: gins r q'
    end.

  (* strict service order: lower priority value first, then earlier arrival *)
  Definition klt (a b : A) : Prop :=
    (prio a < prio b)%Z \/ (prio a = prio b /\ tk a < tk b).

  Definition qsorted (q : list A) : Prop := StronglySorted klt q.
  Definition below (n : nat) (q : list A) : Prop := Forall (fun x => tk x < n) q.

  Lemma klt_trans a b c : klt a b -> klt b c -> klt a c.
  Proof. unfold klt. intros [H|[H1 H2]] [K|[K1 K2]]; [left|left|left|right]; lia. Qed.

  Lemma gins_in r q x : In x (gins r q) <-> x = r \/ In x q.
  Proof.
    induction q as [|y q IH]; simpl; [intuition|].
    destruct (prio r <? prio y)%Z; simpl; rewrite ?IH; intuition.
  Qed.

  Lemma gins_length r q : length (gins r q) = S (length q).
  Proof. induction q as [|y q IH]; simpl; auto. destruct (prio r <? prio y)%Z; simpl; auto. Qed.

  Lemma gins_sorted r q n :
    qsorted q -> below n q -> n <= tk r -> qsorted (gins r q).
  Proof.
    unfold qsorted, below. induction q as [|y q IH]; simpl; intros S B L.
    - repeat constructor.
    - inversion S as [|? ? S' F]; subst. inversion B as [|? ? By B']; subst.
      destruct (Z.ltb_spec (prio r) (prio y)).
      + constructor; auto. constructor.
        * left; auto.
        * rewrite Forall_forall in *. intros x Hx. eapply klt_trans; [left; eassumption|]. auto.
      + constructor; auto. rewrite Forall_forall in *. intros x Hx.
        apply gins_in in Hx as [->|Hx]; auto.
        unfold klt. destruct (Z.eq_dec (prio y) (prio r)); [right; split; auto; lia | left; lia].
  Qed.

  Lemma gins_below r q n : below n q -> tk r < n -> below n (gins r q).
  Proof.
    unfold below. rewrite !Forall_forall. intros B L x Hx. apply gins_in in Hx as [->|Hx]; auto.
  Qed.

  Lemma below_mono n m q : n <= m -> below n q -> below m q.
  Proof. unfold below. rewrite !Forall_forall. intros L B x Hx. specialize (B x Hx). lia. Qed.

  Lemma remove_first_sorted f q : qsorted q -> qsorted (remove_first f q).
  Proof.
    unfold qsorted. induction q as [|y q IH]; simpl; auto. intros S.
    inversion S as [|? ? S' F]; subst. destruct (f y); auto.
    constructor; auto. rewrite Forall_forall in *. intros x Hx. apply F. eapply remove_first_incl; eauto.
  Qed.

  Lemma remove_first_below f q n : below n q -> below n (remove_first f q).
  Proof.
    unfold below. rewrite !Forall_forall. intros B x Hx. apply B. eapply remove_first_incl; eauto.
  Qed.

  (* the head of a sorted queue is the strict minimum of the service order *)
  Lemma sorted_head_min x q y : qsorted (x :: q) -> In y q -> klt x y.
  Proof. intros S H. inversion S as [|? ? _ F]; subst. rewrite Forall_forall in F. auto. Qed.

  Definition qok (n : nat) (q : list A) : Prop := qsorted q /\ below n q.

  Lemma qok_nil n : qok n [].
  Proof. split; constructor. Qed.

  Lemma qok_mono n m q : n <= m -> qok n q -> qok m q.
  Proof. intros L (S & B). split; [exact S|exact (below_mono _ _ _ L B)]. Qed.

  Lemma qok_gins n r q : tk r = n -> qok n q -> qok (S n) (gins r q).
  Proof.
    intros <- (S & B). split; [exact (gins_sorted r q _ S B (le_n _))|].
    apply gins_below; [exact (below_mono _ _ _ (le_S _ _ (le_n _)) B)|apply le_n].
  Qed.

  Lemma qok_tail n x q : qok n (x :: q) -> qok n q.
  Proof. intros (S & B). inversion S. inversion B. split; assumption. Qed.

  Lemma qok_remove_first f n q : qok n q -> qok n (remove_first f q).
  Proof. intros (S & B). split; [apply remove_first_sorted, S|apply remove_first_below, B]. Qed.

  (* the service order is a strict total order on requests with distinct arrival numbers *)
  Lemma klt_irrefl a : ~ klt a a.
  Proof. unfold klt. lia. Qed.

  Lemma klt_total a b : tk a <> tk b -> klt a b \/ klt b a.
  Proof. unfold klt. intros. destruct (Z.lt_trichotomy (prio a) (prio b)) as [|[|]]; lia. Qed.
End Q.
