(* More list helpers: decompositions, NoDup / incl facts. Stdlib only. *)
From Coq Require Import List Arith Lia Bool Permutation.
From FV Require Import ListLemmas.
Import ListNotations.

Lemma nth_error_decomp {A} (l : list A) i x :
  nth_error l i = Some x ->
  exists a b, l = a ++ x :: b /\ length a = i /\ remove_nth i l = a ++ b.
Proof.
  revert i; induction l as [|y l IH]; intros [|i]; simpl; try discriminate.
  - intros [= ->]. exists [], l. auto.
  - intros H. destruct (IH _ H) as (a & b & -> & <- & E).
    exists (y :: a), b. simpl. rewrite E. auto.
Qed.

Lemma remove_first_decomp {A} (f : A -> bool) l :
  existsb f l = true ->
  exists a x b, l = a ++ x :: b /\ f x = true /\ remove_first f l = a ++ b /\
                forallb (fun y => negb (f y)) a = true.
Proof.
  induction l as [|y l IH]; simpl; [discriminate|].
  destruct (f y) eqn:E; simpl.
  - intros _. exists [], y, l. auto.
  - intros H. destruct (IH H) as (a & x & b & -> & ? & -> & ?).
    exists (y :: a), x, b. simpl. rewrite E. auto.
Qed.

Lemma map_remove_nth {A B} (g : A -> B) i l : map g (remove_nth i l) = remove_nth i (map g l).
Proof. revert i; induction l as [|x l IH]; intros [|i]; simpl; auto. f_equal; auto. Qed.

Lemma nth_error_lt' {A} (l : list A) i x : nth_error l i = Some x -> i < length l.
Proof. intros H. apply nth_error_Some. congruence. Qed.

Lemma existsb_eqb_In l x : existsb (Nat.eqb x) l = true <-> In x l.
Proof.
  rewrite existsb_exists. split.
  - intros (y & Hy & E). apply Nat.eqb_eq in E. subst; auto.
  - intros H. exists x. split; auto. apply Nat.eqb_refl.
Qed.

Lemma existsb_eqb_nIn l x : existsb (Nat.eqb x) l = false <-> ~ In x l.
Proof.
  rewrite <- existsb_eqb_In. destruct (existsb (Nat.eqb x) l); intuition congruence.
Qed.

Lemma filter_nil_all {A} (f : A -> bool) l : filter f l = [] -> forall x, In x l -> f x = false.
Proof.
  induction l as [|y l IH]; simpl; [tauto|]. destruct (f y) eqn:E; [discriminate|].
  intros H x [<-|Hx]; auto.
Qed.

Lemma hd_error_In {A} (l : list A) x : hd_error l = Some x -> In x l.
Proof. destruct l; simpl; [discriminate|]. intros [= ->]. auto. Qed.

Lemma hd_error_none {A} (l : list A) : hd_error l = None -> l = [].
Proof. destruct l; simpl; auto; discriminate. Qed.

(* pigeonhole: a duplicate-free list strictly longer than a list it does not fit into *)
Lemma NoDup_incl_lt_ex (l r : list nat) :
  NoDup l -> length r < length l -> exists x, In x l /\ ~ In x r.
Proof.
  intros ND L.
  destruct (filter (fun x => negb (existsb (Nat.eqb x) r)) l) as [|x f] eqn:E.
  - exfalso. assert (incl l r).
    { intros x Hx. pose proof (filter_nil_all _ _ E x Hx) as H. apply negb_false_iff in H.
      apply existsb_eqb_In in H. exact H. }
    pose proof (NoDup_incl_length ND H). lia.
  - assert (In x (filter (fun x => negb (existsb (Nat.eqb x) r)) l)) as H by (rewrite E; left; auto).
    apply filter_In in H as (H1 & H2). apply negb_true_iff, existsb_eqb_nIn in H2. eauto.
Qed.

Lemma NoDup_app_l {A} (a b : list A) : NoDup (a ++ b) -> NoDup a.
Proof. induction a as [|x a IH]; simpl; intros H; [constructor|]. inversion H; subst. constructor; auto. intro; apply H2, in_or_app; auto. Qed.

Lemma NoDup_app_r {A} (a b : list A) : NoDup (a ++ b) -> NoDup b.
Proof. induction a as [|x a IH]; simpl; auto. intros H. inversion H; auto. Qed.

Lemma NoDup_app_disj {A} (a b : list A) x : NoDup (a ++ b) -> In x a -> In x b -> False.
Proof.
  induction a as [|y a IH]; simpl; [tauto|]. intros H [->|Ha] Hb.
  - inversion H; subst. apply H2, in_or_app; auto.
  - inversion H; subst. eauto.
Qed.

Lemma NoDup_app_intro {A} (a b : list A) :
  NoDup a -> NoDup b -> (forall x, In x a -> In x b -> False) -> NoDup (a ++ b).
Proof.
  induction a as [|y a IH]; simpl; auto. intros Ha Hb D. inversion Ha; subst.
  constructor.
  - intros H. apply in_app_or in H as [H|H]; eauto.
  - apply IH; eauto.
Qed.

Lemma NoDup_snoc {A} (l : list A) x : NoDup l -> ~ In x l -> NoDup (l ++ [x]).
Proof.
  intros. apply NoDup_app_intro; auto. repeat constructor; simpl; tauto.
  intros y Hy [<-|[]]. tauto.
Qed.

Lemma NoDup_remove_nth {A} i (l : list A) : NoDup l -> NoDup (remove_nth i l).
Proof.
  revert i; induction l as [|x l IH]; intros [|i] H; simpl; auto; inversion H; subst; auto.
  constructor; auto. intros Hx. apply remove_nth_incl in Hx. tauto.
Qed.

Lemma NoDup_remove_first {A} (f : A -> bool) l : NoDup l -> NoDup (remove_first f l).
Proof.
  induction l as [|x l IH]; simpl; auto. intros H. inversion H; subst.
  destruct (f x); auto. constructor; auto. intros Hx. apply remove_first_incl in Hx. tauto.
Qed.

Lemma remove_nth_not_in {A} i (l : list A) x :
  NoDup l -> nth_error l i = Some x -> ~ In x (remove_nth i l).
Proof.
  intros ND H. destruct (nth_error_decomp _ _ _ H) as (a & b & -> & _ & ->).
  apply NoDup_remove_2 in ND. exact ND.
Qed.

Lemma in_remove_first_neq l x y : In y l -> y <> x -> In y (remove_first (Nat.eqb x) l).
Proof.
  induction l as [|z l IH]; simpl; auto. intros [->|H] N.
  - destruct (Nat.eqb_spec x y); [congruence|]. left; auto.
  - destruct (Nat.eqb x z); auto. right; auto.
Qed.

Lemma remove_first_eqb_not_in l x : NoDup l -> ~ In x (remove_first (Nat.eqb x) l).
Proof.
  induction l as [|z l IH]; simpl; auto. intros H. inversion H; subst.
  destruct (Nat.eqb_spec x z); [subst; auto|]. simpl. intros [E|E]; [congruence|]. tauto.
Qed.

Lemma remove_first_perm {A} (f : A -> bool) l :
  existsb f l = true -> exists x, f x = true /\ Permutation l (x :: remove_first f l).
Proof.
  intros H. destruct (remove_first_decomp f l H) as (a & x & b & -> & Fx & -> & _).
  exists x. split; auto. symmetry. apply Permutation_middle.
Qed.

Lemma remove_first_eqb_perm l x : In x l -> Permutation l (x :: remove_first (Nat.eqb x) l).
Proof.
  intros H. apply existsb_eqb_In in H. destruct (remove_first_perm _ _ H) as (y & E & P).
  apply Nat.eqb_eq in E. subst. exact P.
Qed.

Lemma incl_app_l {A} (a b c : list A) : incl a c -> incl b c -> incl (a ++ b) c.
Proof. intros; apply incl_app; auto. Qed.

Lemma In_hd_error_some {A} (l : list A) x : In x l -> exists y, hd_error l = Some y.
Proof. destruct l; simpl; [tauto|eauto]. Qed.
