(* Generic list helpers shared by all store models. Stdlib only. *)
From Coq Require Import List Arith Lia Bool Permutation.
Import ListNotations.

Fixpoint remove_first {A} (f : A -> bool) (l : list A) : list A :=
  match l with [] => [] | x :: l' => if f x then l' else x :: remove_first f l' end.

Fixpoint index_where {A} (f : A -> bool) (l : list A) : option nat :=
  match l with
  | [] => None
  | x :: l' => if f x then Some 0 else option_map S (index_where f l')
  end.

Fixpoint remove_nth {A} (n : nat) (l : list A) : list A :=
  match l, n with [], _ => [] | _ :: l', 0 => l' | x :: l', S n' => x :: remove_nth n' l' end.

(* Python list.insert: an index past the end appends *)
Fixpoint insert_at {A} (n : nat) (a : A) (l : list A) : list A :=
  match n, l with 0, _ => a :: l | S n', [] => [a] | S n', x :: l' => x :: insert_at n' a l' end.

(* split a list at the first element satisfying f *)
Fixpoint split_first {A} (f : A -> bool) (l : list A) : option (list A * A * list A) :=
  match l with
  | [] => None
  | x :: l' => if f x then Some ([], x, l')
               else match split_first f l' with
                    | Some (a, y, b) => Some (x :: a, y, b)
                    | None => None
                    end
  end.

Lemma remove_first_len {A} (f : A -> bool) l : length (remove_first f l) <= length l.
Proof. induction l as [|x l IH]; simpl; [lia|]. destruct (f x); simpl; lia. Qed.

Lemma remove_first_len_ex {A} (f : A -> bool) l :
  existsb f l = true -> S (length (remove_first f l)) = length l.
Proof.
  induction l as [|x l IH]; simpl; [discriminate|].
  destruct (f x); simpl; intros H; [reflexivity|]. rewrite IH; auto.
Qed.

Lemma remove_first_none {A} (f : A -> bool) l : existsb f l = false -> remove_first f l = l.
Proof.
  induction l as [|x l IH]; simpl; auto. destruct (f x); simpl; [discriminate|].
  intros H. rewrite IH; auto.
Qed.

Lemma remove_first_incl {A} (f : A -> bool) l x : In x (remove_first f l) -> In x l.
Proof.
  induction l as [|y l IH]; simpl; auto. destruct (f y); simpl; intuition.
Qed.

Lemma remove_nth_len {A} n (l : list A) : length (remove_nth n l) <= length l.
Proof. revert n; induction l as [|x l IH]; intros [|n]; simpl; try lia. specialize (IH n); lia. Qed.

Lemma remove_nth_len_lt {A} n (l : list A) : n < length l -> S (length (remove_nth n l)) = length l.
Proof. revert n; induction l as [|x l IH]; intros [|n]; simpl; try lia. intros H. rewrite IH; lia. Qed.

Lemma remove_nth_incl {A} n (l : list A) x : In x (remove_nth n l) -> In x l.
Proof.
  revert n; induction l as [|y l IH]; intros [|n]; simpl; auto. intros [H|H]; auto. right; eauto.
Qed.

Lemma insert_at_len {A} n (a : A) l : length (insert_at n a l) = S (length l).
Proof. revert l; induction n as [|n IH]; intros [|x l]; simpl; auto. Qed.

Lemma insert_at_perm {A} n (a : A) l : Permutation (insert_at n a l) (a :: l).
Proof.
  revert l; induction n as [|n IH]; intros [|x l]; simpl; auto.
  rewrite IH. apply perm_swap.
Qed.

Lemma remove_nth_perm {A} n (l : list A) d :
  n < length l -> Permutation l (nth n l d :: remove_nth n l).
Proof.
  revert n; induction l as [|x l IH]; intros [|n]; simpl; try lia; auto.
  intros H. rewrite (IH n) at 1 by lia. apply perm_swap.
Qed.

Lemma remove_nth_app1 {A} (a b : list A) i : i < length a -> remove_nth i (a ++ b) = remove_nth i a ++ b.
Proof.
  revert i; induction a as [|y a IH]; simpl; intros i L; [lia|].
  destruct i; simpl; auto. f_equal. apply IH. lia.
Qed.

Lemma insert_at_app {A} (a b : list A) x : insert_at (length a) x (a ++ b) = a ++ x :: b.
Proof. induction a as [|y a IH]; simpl; auto. rewrite IH. reflexivity. Qed.

Lemma firstn_app_len {A} (a b : list A) : firstn (length a) (a ++ b) = a.
Proof. induction a as [|y a IH]; simpl; congruence. Qed.

Lemma skipn_app_len {A} (a b : list A) : skipn (length a) (a ++ b) = b.
Proof. induction a as [|y a IH]; simpl; congruence. Qed.

Lemma remove_nth_cut {A B} i (r : list B) (l : list A) :
  i < length r -> length r <= length l ->
  let pre := remove_nth i (firstn (length r) l) in
  length pre = length (remove_nth i r) /\ remove_nth i l = pre ++ skipn (length r) l.
Proof.
  intros Li Lr. assert (i < length (firstn (length r) l)) as Lf by (rewrite firstn_length; lia).
  split.
  - apply remove_nth_len_lt in Li, Lf. rewrite firstn_length in Lf. lia.
  - rewrite <- remove_nth_app1, firstn_skipn by exact Lf. reflexivity.
Qed.

Lemma index_where_lt {A} (f : A -> bool) l i : index_where f l = Some i -> i < length l.
Proof.
  revert i; induction l as [|x l IH]; simpl; intros i; [discriminate|].
  destruct (f x); [intros [= <-]; lia|]. destruct (index_where f l); simpl; [|discriminate].
  intros [= <-]. specialize (IH _ eq_refl). lia.
Qed.

Lemma index_where_some {A} (f : A -> bool) l :
  existsb f l = true -> exists i, index_where f l = Some i.
Proof.
  induction l as [|x l IH]; simpl; [discriminate|]. destruct (f x); simpl; eauto.
  intros H. destruct (IH H) as [i ->]. simpl; eauto.
Qed.

Lemma index_where_none {A} (f : A -> bool) l :
  existsb f l = false -> index_where f l = None.
Proof.
  induction l as [|x l IH]; simpl; auto. destruct (f x); simpl; [discriminate|].
  intros H. rewrite IH; auto.
Qed.

Lemma index_where_nth {A} (f : A -> bool) l i d :
  index_where f l = Some i -> f (nth i l d) = true.
Proof.
  revert i; induction l as [|x l IH]; simpl; intros i; [discriminate|].
  destruct (f x) eqn:E; [intros [= <-]; auto|].
  destruct (index_where f l); simpl; [|discriminate]. intros [= <-]. auto.
Qed.

Lemma index_where_first {A} (f : A -> bool) l i d j :
  index_where f l = Some i -> j < i -> f (nth j l d) = false.
Proof.
  revert i j; induction l as [|x l IH]; simpl; intros i j; [discriminate|].
  destruct (f x) eqn:E; [intros [= <-]; lia|].
  destruct (index_where f l); simpl; [|discriminate]. intros [= <-] Hj.
  destruct j; auto. apply IH with (i := n); auto. lia.
Qed.

Lemma remove_first_is_remove_nth {A} (f : A -> bool) l i :
  index_where f l = Some i -> remove_first f l = remove_nth i l.
Proof.
  revert i; induction l as [|x l IH]; simpl; intros i; [discriminate|].
  destruct (f x); [intros [= <-]; auto|].
  destruct (index_where f l) as [n|]; simpl; [|discriminate]. intros [= <-].
  simpl. f_equal. apply IH. reflexivity.
Qed.

Lemma split_first_spec {A} (f : A -> bool) l a x b :
  split_first f l = Some (a, x, b) ->
  l = a ++ x :: b /\ f x = true /\ forallb (fun y => negb (f y)) a = true.
Proof.
  revert a x b; induction l as [|y l IH]; simpl; intros a x b; [discriminate|].
  destruct (f y) eqn:E.
  - intros [= <- <- <-]. auto.
  - destruct (split_first f l) as [[[a' x'] b']|]; [|discriminate].
    intros [= <- <- <-]. destruct (IH _ _ _ eq_refl) as (-> & ? & ?).
    simpl. rewrite E. auto.
Qed.

Lemma split_first_perm {A} (f : A -> bool) l a x b :
  split_first f l = Some (a, x, b) -> Permutation l (x :: a ++ b).
Proof.
  intros H. apply split_first_spec in H as (-> & _ & _).
  symmetry. apply Permutation_middle.
Qed.

Lemma split_first_none {A} (f : A -> bool) l :
  split_first f l = None -> existsb f l = false.
Proof.
  induction l as [|y l IH]; simpl; auto. destruct (f y); [discriminate|].
  destruct (split_first f l) as [[[a x] b]|]; [discriminate|]. auto.
Qed.

Lemma split_first_some {A} (f : A -> bool) l :
  existsb f l = true -> exists a x b, split_first f l = Some (a, x, b).
Proof.
  induction l as [|y l IH]; simpl; [discriminate|]. destruct (f y); simpl; eauto.
  intros H. destruct (IH H) as (a & x & b & ->). eauto.
Qed.

Lemma firstn_skipn_len {A} n (l : list A) : n <= length l -> length (firstn n l) = n.
Proof. intros. rewrite firstn_length. lia. Qed.

(* the right-hand side is what put_slack 0 / get_slack 0 of the stores unfold to *)
Lemma waiting_slack {A} (q : list A) a b :
  (q <> [] -> (a <? b) = false) <-> length q <= 0 \/ b <= a + 0.
Proof.
  rewrite Nat.ltb_ge, Nat.add_0_r. destruct q; simpl; split.
  - auto.
  - intros _ N. contradiction N. reflexivity.
  - intros H. right. apply H. discriminate.
  - intros [L|L] _; [inversion L|exact L].
Qed.
