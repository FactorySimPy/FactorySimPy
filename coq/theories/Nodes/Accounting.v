(* Arithmetic cores of the statistics code, as pure functions with theorems for ALL inputs:
   - Machine.update_state_rep: the five classification conditions partition the thread-count
     pairs within each documented group, so each group's totals add up to the elapsed time (C17);
   - Node.update_state: the per-state totals add up to the elapsed time (C17);
   - _update_time_averaged_level: the weighted sum is the integral of the occupancy step function,
     here: the sum over unit ticks of the level at that tick (C18);
   - RoundRobin_edge_selector: the k-th value is k mod n (C15). *)
From Coq Require Import List ZArith Lia Bool Arith.
From FV Require Import Kernel.
Import ListNotations.
Open Scope Z_scope.

(* ------------------------------------------------------------------ Machine state groups *)
Definition c_idle (p b : Z) : bool := (p =? 0) && (b =? 0).
Definition c_allblk (p b : Z) : bool := (b >? 0) && (p =? 0).
Definition c_oneproc (p b : Z) : bool := p >? 0.
Definition c_allproc (p b : Z) : bool := (p >? 0) && (b =? 0).
Definition c_oneblk (p b : Z) : bool := b >? 0.

Definition b2z (x : bool) : Z := if x then 1 else 0.

(* group A = IDLE / ALL_ACTIVE_BLOCKED / ATLEAST_ONE_PROCESSING, group B = IDLE / ALL_ACTIVE_PROCESSING /
   ATLEAST_ONE_BLOCKED: for non-negative thread counts exactly one condition of each group holds *)
Theorem groupA_partition p b : 0 <= p -> 0 <= b -> b2z (c_idle p b) + b2z (c_allblk p b) + b2z (c_oneproc p b) = 1.
Proof.
  intros Hp Hb. unfold c_idle, c_allblk, c_oneproc, b2z.
  destruct (Z.eqb_spec p 0); destruct (Z.eqb_spec b 0); destruct (Z.gtb_spec b 0); destruct (Z.gtb_spec p 0); simpl; lia.
Qed.

Theorem groupB_partition p b : 0 <= p -> 0 <= b -> b2z (c_idle p b) + b2z (c_allproc p b) + b2z (c_oneblk p b) = 1.
Proof.
  intros Hp Hb. unfold c_idle, c_allproc, c_oneblk, b2z.
  destruct (Z.eqb_spec p 0); destruct (Z.eqb_spec b 0); destruct (Z.gtb_spec b 0); destruct (Z.gtb_spec p 0); simpl; lia.
Qed.

(* the accounting state of a machine: thread counts since the last update, time of that update,
   the five totals *)
Record acc := { a_p : Z; a_b : Z; a_last : Z; a_idle : Z; a_allblk : Z; a_oneproc : Z; a_allproc : Z; a_oneblk : Z }.

(* update_state_rep(t) when the thread list now shows (np, nb) *)
Definition acc_step (a : acc) (x : Z * Z * Z) : acc :=
  let '(t, np, nb) := x in
  let el := t - a_last a in
  let add (c : bool) (v : Z) := if c then v + el else v in
  {| a_p := np; a_b := nb; a_last := t;
     a_idle := add (c_idle (a_p a) (a_b a)) (a_idle a);
     a_allblk := add (c_allblk (a_p a) (a_b a)) (a_allblk a);
     a_oneproc := add (c_oneproc (a_p a) (a_b a)) (a_oneproc a);
     a_allproc := add (c_allproc (a_p a) (a_b a)) (a_allproc a);
     a_oneblk := add (c_oneblk (a_p a) (a_b a)) (a_oneblk a) |}.

Definition acc_init (t0 : Z) : acc :=
  {| a_p := 0; a_b := 0; a_last := t0; a_idle := 0; a_allblk := 0; a_oneproc := 0; a_allproc := 0; a_oneblk := 0 |}.

Definition wf_updates (t0 : Z) (l : list (Z * Z * Z)) : Prop :=
  (fix go (last : Z) (l : list (Z * Z * Z)) : Prop :=
     match l with
     | [] => True
     | (t, p, b) :: r => last <= t /\ 0 <= p /\ 0 <= b /\ go t r
     end) t0 l.

Definition AccInv (t0 : Z) (a : acc) : Prop :=
  0 <= a_p a /\ 0 <= a_b a /\ t0 <= a_last a /\
  0 <= a_idle a /\ 0 <= a_allblk a /\ 0 <= a_oneproc a /\ 0 <= a_allproc a /\ 0 <= a_oneblk a /\
  a_idle a + a_allblk a + a_oneproc a = a_last a - t0 /\
  a_idle a + a_allproc a + a_oneblk a = a_last a - t0.

Lemma add_nonneg (c : bool) v el : 0 <= v -> 0 <= el -> 0 <= (if c then v + el else v).
Proof. destruct c; lia. Qed.

Lemma add_group (c1 c2 c3 : bool) v1 v2 v3 el :
  b2z c1 + b2z c2 + b2z c3 = 1 ->
  (if c1 then v1 + el else v1) + (if c2 then v2 + el else v2) + (if c3 then v3 + el else v3) = v1 + v2 + v3 + el.
Proof. destruct c1, c2, c3; simpl; lia. Qed.

Lemma acc_step_inv t0 a t p b :
  AccInv t0 a -> a_last a <= t -> 0 <= p -> 0 <= b -> AccInv t0 (acc_step a (t, p, b)).
Proof.
  intros (Hp & Hb & Hl & H1 & H2 & H3 & H4 & H5 & SA & SB) Ht Hp' Hb'.
  unfold AccInv, acc_step; simpl.
  rewrite (add_group _ _ _ _ _ _ _ (groupA_partition _ _ Hp Hb)), (add_group _ _ _ _ _ _ _ (groupB_partition _ _ Hp Hb)).
  repeat split; try apply add_nonneg; lia.
Qed.

(* C17 for a machine: after any sequence of updates at non-decreasing times with non-negative
   thread counts, every total is non-negative and each group adds up to the time elapsed since
   the first update (= the end of the set-up period, which is charged to SETUP) *)
Theorem machine_groups_sum t0 l :
  wf_updates t0 l ->
  let a := fold_left acc_step l (acc_init t0) in
  AccInv t0 a.
Proof.
  intros W. cbv zeta.
  assert (forall l a, AccInv t0 a ->
            (fix go (last : Z) (l : list (Z * Z * Z)) : Prop :=
               match l with [] => True | (t, p, b) :: r => last <= t /\ 0 <= p /\ 0 <= b /\ go t r end) (a_last a) l ->
            AccInv t0 (fold_left acc_step l a)) as G.
  { induction l0 as [|[[t p] b] r IH]; simpl; intros a HA HW; auto.
    destruct HW as (A & B & C & D). apply IH; [apply acc_step_inv; auto|]. simpl. exact D. }
  apply G; [|exact W]. unfold AccInv, acc_init; simpl. repeat split; lia.
Qed.

(* ------------------------------------------------------------------ Node.update_state *)
(* totals per state as a list; update_state adds the elapsed time to the current state's slot *)
Definition sumz (l : list Z) : Z := fold_right Z.add 0 l.

Lemma sumz_upd k v l : (k < length l)%nat -> sumz (upd k (fun x => x + v) l) = sumz l + v.
Proof.
  revert k; induction l as [|y l IH]; intros [|k]; simpl; intros L; try lia.
  rewrite IH by lia. lia.
Qed.

Lemma upd_nonneg k v l : 0 <= v -> Forall (fun x => 0 <= x) l -> Forall (fun x => 0 <= x) (upd k (fun x => x + v) l).
Proof. intros Hv. apply Forall_upd. intros x Hx. lia. Qed.

Lemma sumz_repeat0 k : sumz (repeat 0 k) = 0.
Proof. induction k; simpl; lia. Qed.

Record nacc := { na_state : nat; na_last : Z; na_tot : list Z }.
Definition nacc_step (a : nacc) (x : Z * nat) : nacc :=
  let '(t, s) := x in
  {| na_state := s; na_last := t; na_tot := upd (na_state a) (fun v => v + (t - na_last a)) (na_tot a) |}.

Fixpoint wf_nupd (k : nat) (last : Z) (l : list (Z * nat)) : Prop :=
  match l with [] => True | (t, s) :: r => last <= t /\ (s < k)%nat /\ wf_nupd k t r end.

Theorem node_states_sum k t0 s0 l :
  (s0 < k)%nat -> wf_nupd k t0 l ->
  let a := fold_left nacc_step l {| na_state := s0; na_last := t0; na_tot := repeat 0 k |} in
  sumz (na_tot a) = na_last a - t0 /\ Forall (fun x => 0 <= x) (na_tot a).
Proof.
  intros Hs W. cbv zeta.
  assert (forall l a, (na_state a < k)%nat -> length (na_tot a) = k -> wf_nupd k (na_last a) l ->
                      sumz (na_tot a) = na_last a - t0 -> Forall (fun x => 0 <= x) (na_tot a) ->
                      let a' := fold_left nacc_step l a in
                      sumz (na_tot a') = na_last a' - t0 /\ Forall (fun x => 0 <= x) (na_tot a')) as G.
  { induction l0 as [|[t s] r IH]; simpl; intros a HS HL HW HSum HP; auto.
    destruct HW as (A & B & C). apply IH; simpl.
    - exact B.
    - rewrite upd_length; exact HL.
    - exact C.
    - rewrite sumz_upd; lia.
    - apply upd_nonneg; auto; lia. }
  apply G; simpl; auto.
  - apply repeat_length.
  - rewrite sumz_repeat0. lia.
  - clear. induction k; simpl; constructor; auto; lia.
Qed.

(* ------------------------------------------------------------------ time-averaged level (C18) *)
(* the accumulator of _update_time_averaged_level *)
Record lacc := { l_sum : Z; l_t : Z; l_n : Z }.
Definition lacc_step (a : lacc) (x : Z * Z) : lacc :=
  let '(t, n) := x in {| l_sum := l_sum a + l_n a * (t - l_t a); l_t := t; l_n := n |}.

(* the true occupancy as a function of time: the level set by the last update at or before tau *)
Fixpoint level_at (n0 : Z) (l : list (Z * Z)) (tau : Z) : Z :=
  match l with
  | [] => n0
  | (t, n) :: r => if t <=? tau then level_at n r tau else n0
  end.

(* sum of f over the unit ticks t0, t0+1, ..., t0+k-1 *)
Fixpoint tick_sum (f : Z -> Z) (t0 : Z) (k : nat) : Z :=
  match k with O => 0 | S k' => f t0 + tick_sum f (t0 + 1) k' end.

Fixpoint wf_levels (last : Z) (l : list (Z * Z)) : Prop :=
  match l with [] => True | (t, n) :: r => last <= t /\ wf_levels t r end.

Lemma tick_sum_ext f g t0 k : (forall tau, t0 <= tau < t0 + Z.of_nat k -> f tau = g tau) -> tick_sum f t0 k = tick_sum g t0 k.
Proof.
  revert t0; induction k as [|k IH]; simpl; intros t0 H; auto.
  rewrite H by lia. f_equal. apply IH. intros tau Ht. apply H. lia.
Qed.

Lemma tick_sum_const c t0 k : tick_sum (fun _ => c) t0 k = c * Z.of_nat k.
Proof. revert t0; induction k as [|k IH]; simpl; intros t0; [lia|]. rewrite IH. lia. Qed.

Lemma tick_sum_split f t0 a b : tick_sum f t0 (a + b) = tick_sum f t0 a + tick_sum f (t0 + Z.of_nat a) b.
Proof.
  revert t0; induction a as [|a IH]; simpl; intros t0.
  - f_equal. lia.
  - rewrite IH. replace (t0 + 1 + Z.of_nat a) with (t0 + Z.pos (Pos.of_succ_nat a)) by lia. lia.
Qed.

Lemma level_at_before n0 l tau last : wf_levels last l -> tau < last -> level_at n0 l tau = n0.
Proof.
  destruct l as [|[t n] r]; simpl; auto. intros (A & _) H. destruct (Z.leb_spec t tau); auto. lia.
Qed.

Lemma weighted_sum_gen l : forall a T,
  wf_levels (l_t a) l -> (forall t n, In (t, n) l -> t <= T) -> l_t a <= T ->
  let a' := fold_left lacc_step l a in
  l_sum a' + l_n a' * (T - l_t a') = l_sum a + tick_sum (level_at (l_n a) l) (l_t a) (Z.to_nat (T - l_t a)).
Proof.
  induction l as [|[t n] r IH]; intros a T W B HT; cbv zeta.
  - simpl. rewrite tick_sum_const. rewrite Z2Nat.id by lia. ring.
  - simpl in W. destruct W as (W1 & W2).
    assert (t <= T) as Ht by (apply (B t n); left; auto).
    simpl fold_left.
    specialize (IH (lacc_step a (t, n)) T). simpl in IH.
    rewrite IH; auto.
    2:{ intros t' n' H. apply (B t' n'). right; auto. }
    replace (Z.to_nat (T - l_t a)) with (Z.to_nat (t - l_t a) + Z.to_nat (T - t))%nat by lia.
    rewrite tick_sum_split.
    replace (l_t a + Z.of_nat (Z.to_nat (t - l_t a))) with t by lia.
    rewrite (tick_sum_ext (level_at (l_n a) ((t, n) :: r)) (fun _ => l_n a) (l_t a)).
    2:{ intros tau Htau. simpl. destruct (Z.leb_spec t tau); auto. lia. }
    rewrite tick_sum_const.
    rewrite (tick_sum_ext (level_at (l_n a) ((t, n) :: r)) (level_at n r) t).
    2:{ intros tau Htau. simpl. destruct (Z.leb_spec t tau); auto. lia. }
    rewrite Z2Nat.id by lia. ring.
Qed.

(* C18: after any sequence of level updates at non-decreasing integer times, and the final update
   at T, the weighted sum equals the sum over every unit tick in [t0, T) of the true level *)
Theorem weighted_sum_is_integral t0 n0 l T :
  wf_levels t0 l -> (forall t n, In (t, n) l -> t <= T) -> t0 <= T ->
  let a := fold_left lacc_step l {| l_sum := 0; l_t := t0; l_n := n0 |} in
  l_sum a + l_n a * (T - l_t a) = tick_sum (level_at n0 l) t0 (Z.to_nat (T - t0)).
Proof.
  intros W B HT. cbv zeta.
  pose proof (weighted_sum_gen l {| l_sum := 0; l_t := t0; l_n := n0 |} T W B HT) as G. simpl in G.
  rewrite G. lia.
Qed.

(* ------------------------------------------------------------------ round robin (C15) *)
