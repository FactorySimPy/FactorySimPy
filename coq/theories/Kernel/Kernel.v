(* L0: model of the SimPy 4.1 kernel (Environment.step, Event.succeed, Timeout, Condition/AnyOf,
   Resource).  Rules as in DESIGN.md Appendix B.  Model first, lemmas below. *)
From Coq Require Import List ZArith Lia Bool Arith.
From FV Require Import ListLemmas.
Import ListNotations.
Open Scope Z_scope.

(* callbacks are a closed type: what SimPy attaches to an event in this library *)
Inductive cb :=
| CbResume (p : nat)         (* Process._resume *)
| CbCheck (c : nat)          (* Condition._check of the any_of event c *)
| CbResTrigGet (r : nat)     (* Resource._trigger_get (attached to a Request) *)
| CbResTrigPut (r : nat)     (* Resource._trigger_put (attached to a Release) *)
| CbStoreTrigPut (e : nat).  (* belt store: _trigger_reserve_put attached to the phase-1 event *)

Record ev := { e_trig : bool; e_proc : bool; e_cbs : list cb }.
Record qent := { q_time : Z; q_prio : nat; q_seq : nat; q_ev : nat }.
Record kern := { now : Z; seq : nat; queue : list qent; evs : list ev }.

Definition URGENT := 0%nat.
Definition NORMAL := 1%nat.

Definition kinit : kern := {| now := 0; seq := 0; queue := []; evs := [] |}.

Definition qlt (a b : qent) : bool :=
  (q_time a <? q_time b) ||
  ((q_time a =? q_time b) && ((q_prio a <? q_prio b)%nat || ((q_prio a =? q_prio b)%nat && (q_seq a <? q_seq b)%nat))).

(* the heap, as a sorted list: insert behind everything that is not later *)
Fixpoint qins (x : qent) (q : list qent) : list qent :=
  match q with
  | [] => [x]
  | y :: q' => if qlt x y then x :: q else y :: qins x q'
  end.

Fixpoint upd {A} (n : nat) (f : A -> A) (l : list A) : list A :=
  match l, n with
  | [], _ => []
  | x :: l', O => f x :: l'
  | x :: l', S n' => x :: upd n' f l'
  end.

Definition ev0 : ev := {| e_trig := false; e_proc := false; e_cbs := [] |}.
Definition get_ev (k : kern) (e : nat) : ev := nth e (evs k) ev0.

Definition set_evs k x := {| now := now k; seq := seq k; queue := queue k; evs := x |}.

(* env.event() *)
Definition new_event (k : kern) : kern * nat := (set_evs k (evs k ++ [ev0]), length (evs k)).

(* env.schedule(event, priority, delay) *)
Definition schedule (k : kern) (e : nat) (prio : nat) (d : Z) : kern :=
  {| now := now k; seq := S (seq k);
     queue := qins {| q_time := now k + d; q_prio := prio; q_seq := seq k; q_ev := e |} (queue k);
     evs := evs k |}.

Definition mark_trig (k : kern) (e : nat) : kern :=
  set_evs k (upd e (fun x => {| e_trig := true; e_proc := e_proc x; e_cbs := e_cbs x |}) (evs k)).

(* event.succeed(): None = RuntimeError (already triggered) *)
Definition succeed (k : kern) (e : nat) : option kern :=
  if e_trig (get_ev k e) then None else Some (schedule (mark_trig k e) e NORMAL 0).

(* env.timeout(d) *)
Definition timeout (k : kern) (d : Z) : kern * nat :=
  let '(k1, e) := new_event k in
  (schedule (mark_trig k1 e) e NORMAL d, e).

Definition add_cb (k : kern) (e : nat) (c : cb) : kern :=
  set_evs k (upd e (fun x => {| e_trig := e_trig x; e_proc := e_proc x; e_cbs := e_cbs x ++ [c] |}) (evs k)).

(* Condition._check *)
Definition check (k : kern) (c : nat) : kern :=
  if e_trig (get_ev k c) then k else schedule (mark_trig k c) c NORMAL 0.

(* env.any_of(events) *)
Definition any_of (k : kern) (es : list nat) : kern * nat :=
  let '(k1, c) := new_event k in
  match es with
  | [] => (schedule (mark_trig k1 c) c NORMAL 0, c)
  | _ =>
      (fold_left (fun k e => if e_proc (get_ev k e) then check k c else add_cb k e (CbCheck c)) es k1, c)
  end.

(* heappop: the head of the sorted queue; the clock jumps to its time; the event is marked
   processed and its callbacks are handed out *)
Definition pop (k : kern) : option (kern * nat * list cb) :=
  match queue k with
  | [] => None
  | x :: q =>
      let e := q_ev x in
      let cbs := e_cbs (get_ev k e) in
      Some ({| now := q_time x; seq := seq k; queue := q;
               evs := upd e (fun y => {| e_trig := e_trig y; e_proc := true; e_cbs := [] |}) (evs k) |}, e, cbs)
  end.

(* ------------------------------------------------------------------ simpy.Resource *)
Record res := { r_cap : nat; r_users : list nat; r_putq : list nat; r_getq : list (nat * nat) }.

Definition res_init (c : nat) : res := {| r_cap := c; r_users := []; r_putq := []; r_getq := [] |}.

(* _trigger_put: the head request only (_do_put returns None) *)
Definition res_trig_put (k : kern) (r : res) : option (kern * res) :=
  match r_putq r with
  | [] => Some (k, r)
  | q :: rest =>
      if (length (r_users r) <? r_cap r)%nat then
        match succeed k q with
        | Some k' => Some (k', {| r_cap := r_cap r; r_users := r_users r ++ [q]; r_putq := rest; r_getq := r_getq r |})
        | None => None
        end
      else Some (k, r)
  end.

Definition res_trig_get (k : kern) (r : res) : option (kern * res) :=
  match r_getq r with
  | [] => Some (k, r)
  | (g, q) :: rest =>
      match succeed k g with
      | Some k' => Some (k', {| r_cap := r_cap r; r_users := remove_first (Nat.eqb q) (r_users r);
                                r_putq := r_putq r; r_getq := rest |})
      | None => None
      end
  end.

(* resource.request(): new event, queued, callback _trigger_get attached, _trigger_put run *)
Definition res_request (k : kern) (rid : nat) (r : res) : option (kern * res * nat) :=
  let '(k1, q) := new_event k in
  let k2 := add_cb k1 q (CbResTrigGet rid) in
  match res_trig_put k2 {| r_cap := r_cap r; r_users := r_users r; r_putq := r_putq r ++ [q]; r_getq := r_getq r |} with
  | Some (k3, r') => Some (k3, r', q)
  | None => None
  end.

(* resource.release(request) *)
Definition res_release (k : kern) (rid : nat) (r : res) (q : nat) : option (kern * res * nat) :=
  let '(k1, g) := new_event k in
  let k2 := add_cb k1 g (CbResTrigPut rid) in
  match res_trig_get k2 {| r_cap := r_cap r; r_users := r_users r; r_putq := r_putq r; r_getq := r_getq r ++ [(g, q)] |} with
  | Some (k3, r') => Some (k3, r', g)
  | None => None
  end.

(* ------------------------------------------------------------------ lemmas *)

Lemma upd_length {A} n (f : A -> A) l : length (upd n f l) = length l.
Proof. revert l. induction n as [|n IH]; intros [|x l]; simpl; auto. Qed.
Lemma nth_upd_same {A} n (f : A -> A) : forall l d, (n < length l)%nat -> nth n (upd n f l) d = f (nth n l d).
Proof. induction n as [|n IH]; intros [|x l] d H; simpl in *; try lia; auto. apply IH. lia. Qed.
Lemma nth_upd_other {A} n m (f : A -> A) : forall l d, n <> m -> nth m (upd n f l) d = nth m l d.
Proof. revert m. induction n as [|n IH]; intros [|m] [|x l] d H; simpl in *; try lia; auto; apply IH; lia. Qed.
Lemma upd_none {A} n (f : A -> A) : forall l, nth_error l n = None -> upd n f l = l.
Proof. induction n as [|n IH]; intros [|x l] E; simpl in *; auto; try discriminate. rewrite IH; auto. Qed.
Lemma upd_upd {A} n (f g : A -> A) : forall l, upd n g (upd n f l) = upd n (fun x => g (f x)) l.
Proof. induction n as [|n IH]; intros [|x l]; simpl; auto. f_equal. apply IH. Qed.
Lemma upd_forall {A} (P : A -> Prop) n f :
  forall l, Forall P l -> (forall x, nth_error l n = Some x -> P x -> P (f x)) -> Forall P (upd n f l).
Proof. induction n as [|n IH]; intros [|y l] H K; simpl; auto; inversion H; subst; constructor; auto. Qed.
Lemma Forall_upd {A} (P : A -> Prop) n f : (forall x, P x -> P (f x)) -> forall l, Forall P l -> Forall P (upd n f l).
Proof. intros K l H. apply upd_forall; auto. Qed.
Lemma upd_forall_to {A} (P Q : A -> Prop) n f d :
  (forall x, P x -> Q x) -> forall l, (P (nth n l d) -> Q (f (nth n l d))) -> Forall P l -> Forall Q (upd n f l).
Proof.
  intros PQ. induction n as [|n IH]; intros [|y l] K H; simpl; auto; inversion H; subst; constructor; auto.
  eapply Forall_impl; eauto.
Qed.
Lemma upd_forall_at {A} (P : A -> Prop) n f l d : (P (nth n l d) -> P (f (nth n l d))) -> Forall P l -> Forall P (upd n f l).
Proof. apply upd_forall_to. auto. Qed.
(* a field g of the elements that the update keeps, at the element it is applied to; no bound on n: out of range,
   upd changes nothing *)
Lemma nth_upd_kept_at {A B} (g : A -> B) n f l d :
  g (f (nth n l d)) = g (nth n l d) -> forall m, g (nth m (upd n f l) d) = g (nth m l d).
Proof.
  intros K m. destruct (Nat.eq_dec n m) as [<-|N]; [|rewrite nth_upd_other by exact N; reflexivity].
  destruct (nth_error l n) eqn:E.
  - rewrite nth_upd_same by (apply nth_error_Some; congruence). exact K.
  - rewrite upd_none by exact E. reflexivity.
Qed.
Lemma nth_upd_kept {A B} (g : A -> B) n f : (forall x, g (f x) = g x) -> forall m l d, g (nth m (upd n f l) d) = g (nth m l d).
Proof. intros K m l d. apply nth_upd_kept_at, K. Qed.

Lemma nth_upd_field {A B} (g : A -> B) h n f l d :
  (n < length l)%nat -> (forall x, g (f x) = h (g x)) -> g (nth n (upd n f l) d) = h (g (nth n l d)).
Proof. intros L K. rewrite nth_upd_same by exact L. apply K. Qed.

(* one more element at the end, then an update of an earlier one: the table after a block has started a process *)
Lemma upd_snoc {A} p f (l : list A) q k d : length l = k -> (p < k)%nat ->
  length (upd p f (l ++ [q])) = S k /\ nth k (upd p f (l ++ [q])) d = q.
Proof.
  intros <- L. rewrite upd_length, app_length, nth_upd_other, app_nth2, Nat.sub_diag by lia. split; [apply Nat.add_1_r|reflexivity].
Qed.


(* ---------------------------------------------------------------- what every operation keeps
   Every kernel operation other than pop is composed of three moves: a new event, a callback added, an
   untriggered event triggered (marked and scheduled).  What these keep -- for the delays [okd] and the
   callbacks [okcb] that occur -- every operation keeps. *)
Lemma new_event_untriggered k : e_trig (get_ev (fst (new_event k)) (length (evs k))) = false.
Proof. unfold get_ev. cbn. rewrite nth_middle. reflexivity. Qed.

Section Kept.
  Variable P : kern -> Prop.
  Variable okd : Z -> Prop.
  Variable okcb : cb -> Prop.
  Hypothesis okd_0 : okd 0.
  Hypothesis okcb_check : forall c, okcb (CbCheck c).
  Hypothesis okcb_get : forall r, okcb (CbResTrigGet r).
  Hypothesis okcb_put : forall r, okcb (CbResTrigPut r).
  Hypothesis P_new : forall k, P k -> P (fst (new_event k)).
  Hypothesis P_add_cb : forall k e c, okcb c -> P k -> P (add_cb k e c).
  Hypothesis P_trigger : forall k e p d, okd d -> e_trig (get_ev k e) = false -> P k -> P (schedule (mark_trig k e) e p d).

  Lemma kept_succeed k e k' : succeed k e = Some k' -> P k -> P k'.
  Proof. unfold succeed. destruct (e_trig (get_ev k e)) eqn:E; [discriminate|]. intros [= <-]. apply P_trigger; auto. Qed.
  Lemma kept_timeout k d : okd d -> P k -> P (fst (timeout k d)).
  Proof. intros D H. apply P_trigger; [exact D|apply new_event_untriggered|apply P_new, H]. Qed.
  Lemma kept_check k c : P k -> P (check k c).
  Proof. intros H. unfold check. destruct (e_trig (get_ev k c)) eqn:E; [exact H|]. apply P_trigger; auto. Qed.
  Lemma kept_any_of k es : P k -> P (fst (any_of k es)).
  Proof.
    intros H. unfold any_of. cbn. destruct es as [|e0 es]; cbn [fst]; [apply kept_timeout; auto|].
    generalize (e0 :: es). intros l. apply P_new in H. revert H. unfold new_event. cbn [fst]. generalize (set_evs k (evs k ++ [ev0])).
    induction l as [|x l IH]; intros k1 H; simpl; [exact H|]. apply IH.
    destruct (e_proc (get_ev k1 x)); [apply kept_check|apply P_add_cb]; auto.
  Qed.
  Lemma kept_res_trig_put k r k' r' : res_trig_put k r = Some (k', r') -> P k -> P k'.
  Proof.
    unfold res_trig_put. destruct (r_putq r) as [|q rest]; [intros [= <- _]; auto|].
    destruct (_ <? _)%nat; [|intros [= <- _]; auto]. destruct (succeed k q) as [k2|] eqn:S; [|discriminate].
    intros [= <- _]. apply (kept_succeed _ _ _ S).
  Qed.
  Lemma kept_res_trig_get k r k' r' : res_trig_get k r = Some (k', r') -> P k -> P k'.
  Proof.
    unfold res_trig_get. destruct (r_getq r) as [|[g q] rest]; [intros [= <- _]; auto|].
    destruct (succeed k g) as [k2|] eqn:S; [|discriminate]. intros [= <- _]. apply (kept_succeed _ _ _ S).
  Qed.
  Lemma kept_res_request k rid r k' r' q : res_request k rid r = Some (k', r', q) -> P k -> P k'.
  Proof.
    unfold res_request. cbn. destruct (res_trig_put _ _) as [[k3 r3]|] eqn:E; [|discriminate].
    intros [= <- _ _] H. apply (kept_res_trig_put _ _ _ _ E), P_add_cb, P_new, H. auto.
  Qed.
  Lemma kept_res_release k rid r q k' r' g : res_release k rid r q = Some (k', r', g) -> P k -> P k'.
  Proof.
    unfold res_release. cbn. destruct (res_trig_get _ _) as [[k3 r3]|] eqn:E; [|discriminate].
    intros [= <- _ _] H. apply (kept_res_trig_get _ _ _ _ E), P_add_cb, P_new, H. auto.
  Qed.
End Kept.

(* every queued event is due now or later *)
Definition QInv (k : kern) : Prop := Forall (fun x => now k <= q_time x) (queue k).

Lemma qins_in x q y : In y (qins x q) <-> y = x \/ In y q.
Proof.
  induction q as [|z q IH]; simpl; [intuition|]. destruct (qlt x z); simpl; rewrite ?IH; intuition.
Qed.

Lemma qins_forall (P : qent -> Prop) x q : P x -> Forall P q -> Forall P (qins x q).
Proof.
  intros Hx Hq. rewrite Forall_forall in *. intros y Hy. apply qins_in in Hy as [->|Hy]; auto.
Qed.

Lemma schedule_qinv k e p d : 0 <= d -> QInv k -> QInv (schedule k e p d).
Proof. intros Hd H. unfold QInv, schedule in *; simpl. apply qins_forall; simpl; auto. lia. Qed.

Lemma mark_trig_qinv k e : QInv k -> QInv (mark_trig k e).
Proof. auto. Qed.
Lemma add_cb_qinv k e c : QInv k -> QInv (add_cb k e c).
Proof. auto. Qed.
Lemma new_event_qinv k : QInv k -> QInv (fst (new_event k)).
Proof. auto. Qed.

Lemma trigger_qinv k e p d : 0 <= d -> e_trig (get_ev k e) = false -> QInv k -> QInv (schedule (mark_trig k e) e p d).
Proof. intros D _ H. apply schedule_qinv; [exact D|]. apply mark_trig_qinv, H. Qed.

Lemma succeed_qinv k e k' : succeed k e = Some k' -> QInv k -> QInv k'.
Proof. apply (kept_succeed QInv (fun d => 0 <= d) (Z.le_refl 0) trigger_qinv). Qed.

Lemma timeout_qinv k d : 0 <= d -> QInv k -> QInv (fst (timeout k d)).
Proof. apply (kept_timeout QInv (fun d => 0 <= d) new_event_qinv trigger_qinv). Qed.

Lemma check_qinv k c : QInv k -> QInv (check k c).
Proof. apply (kept_check QInv (fun d => 0 <= d) (Z.le_refl 0) trigger_qinv). Qed.

Lemma any_of_qinv k es : QInv k -> QInv (fst (any_of k es)).
Proof.
  apply (kept_any_of QInv (fun d => 0 <= d) (fun _ => True)); auto using new_event_qinv, trigger_qinv, add_cb_qinv.
  exact (Z.le_refl 0).
Qed.

(* sortedness of the queue by time is all we need for monotone time *)
Definition QSorted (k : kern) : Prop := forall a b q1 q2, queue k = q1 ++ a :: b :: q2 -> q_time a <= q_time b.

(* C19: the clock never goes back *)
Theorem pop_time_monotone k k' e cbs : QInv k -> pop k = Some (k', e, cbs) -> now k <= now k'.
Proof.
  unfold pop, QInv. destruct (queue k) as [|x q]; [discriminate|]. intros H [= <- _ _]. simpl.
  inversion H; auto.
Qed.

Lemma qlt_false_le x y : qlt x y = false -> q_time y <= q_time x.
Proof.
  unfold qlt. intros H. apply orb_false_iff in H as (A & _). apply Z.ltb_ge in A. exact A.
Qed.

Definition TSorted (q : list qent) : Prop := forall i j, (i < j < length q)%nat ->
  q_time (nth i q {| q_time := 0; q_prio := 0; q_seq := 0; q_ev := 0 |}) <=
  q_time (nth j q {| q_time := 0; q_prio := 0; q_seq := 0; q_ev := 0 |}).

Lemma pop_qinv k k' e cbs : QInv k -> (forall x, In x (queue k) -> q_time (hd {| q_time := 0; q_prio := 0; q_seq := 0; q_ev := 0 |} (queue k)) <= q_time x) ->
  pop k = Some (k', e, cbs) -> QInv k'.
Proof.
  unfold pop, QInv. destruct (queue k) as [|x q] eqn:E; [discriminate|]. intros H M [= <- _ _]. simpl in *.
  rewrite Forall_forall. intros y Hy. apply M. auto.
Qed.

(* the head of a queue built by qins is a minimum w.r.t. time *)
Definition HeadMin (q : list qent) : Prop :=
  match q with [] => True | x :: r => Forall (fun y => q_time x <= q_time y) r /\ True end.

Inductive tsorted : list qent -> Prop :=
| ts_nil : tsorted []
| ts_cons x q : Forall (fun y => q_time x <= q_time y) q -> tsorted q -> tsorted (x :: q).

Lemma qins_tsorted x q : tsorted q -> tsorted (qins x q).
Proof.
  induction 1 as [|y q F S IH]; simpl.
  - constructor; constructor.
  - destruct (qlt x y) eqn:E.
    + constructor; [|constructor; auto].
      assert (q_time x <= q_time y) as L.
      { unfold qlt in E. apply orb_true_iff in E as [E|E]; [apply Z.ltb_lt in E; lia|].
        apply andb_prop in E as (E & _). apply Z.eqb_eq in E. lia. }
      constructor; auto. rewrite Forall_forall in *. intros z Hz. specialize (F z Hz). lia.
    + constructor; auto. apply qins_forall; auto. apply qlt_false_le; auto.
Qed.

Definition KInv (k : kern) : Prop := QInv k /\ tsorted (queue k).

Lemma schedule_kinv k e p d : 0 <= d -> KInv k -> KInv (schedule k e p d).
Proof. intros Hd (A & B). split; [apply schedule_qinv; auto|]. simpl. apply qins_tsorted; auto. Qed.

Lemma pop_kinv k k' e cbs : KInv k -> pop k = Some (k', e, cbs) -> KInv k' /\ now k <= now k'.
Proof.
  intros (A & B) E. pose proof (pop_time_monotone _ _ _ _ A E) as M. split; auto.
  unfold pop in E. destruct (queue k) as [|x q] eqn:EQ; [discriminate|]. inversion E; subst. clear E.
  inversion B; subst. split; simpl; auto.
Qed.

(* Resource: never more users than capacity *)
Definition RInv (r : res) : Prop := (length (r_users r) <= r_cap r)%nat.

Lemma res_trig_put_inv k r k' r' : res_trig_put k r = Some (k', r') -> RInv r -> RInv r'.
Proof.
  unfold res_trig_put, RInv. destruct (r_putq r); [intros [= <- <-]; auto|].
  destruct (Nat.ltb_spec (length (r_users r)) (r_cap r)); [|intros [= <- <-]; auto].
  destruct (succeed k n); [|discriminate]. intros [= <- <-] _. simpl. rewrite app_length; simpl. lia.
Qed.

Lemma res_trig_get_inv k r k' r' : res_trig_get k r = Some (k', r') -> RInv r -> RInv r'.
Proof.
  unfold res_trig_get, RInv. destruct (r_getq r) as [|[g q] rest]; [intros [= <- <-]; auto|].
  destruct (succeed k g); [|discriminate]. intros [= <- <-] H. simpl.
  pose proof (remove_first_len (Nat.eqb q) (r_users r)). lia.
Qed.

Lemma res_request_inv k rid r k' r' q : res_request k rid r = Some (k', r', q) -> RInv r -> RInv r'.
Proof.
  unfold res_request. simpl. destruct (res_trig_put _ _) as [[k3 r3]|] eqn:E; [|discriminate].
  intros [= <- <- <-] H. eapply res_trig_put_inv; eauto.
Qed.

Lemma res_release_inv k rid r q k' r' g : res_release k rid r q = Some (k', r', g) -> RInv r -> RInv r'.
Proof.
  unfold res_release. simpl. destruct (res_trig_get _ _) as [[k3 r3]|] eqn:E; [|discriminate].
  intros [= <- <- <-] H. eapply res_trig_get_inv; eauto.
Qed.
