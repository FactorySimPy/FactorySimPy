(* The timer contract of the kernel model (L0): an event created by [timeout k d] is processed exactly d after its creation,
   whatever kernel operations happen in between -- nothing can schedule it a second time (it is born triggered, and every
   scheduling primitive other than [timeout] itself acts on an untriggered or on a fresh event), its one queue entry carries the
   time now + d, the clock never passes that time while the entry is queued (queue invariant), and popping the entry sets the
   clock to exactly that time.  This is the "an event is processed at its scheduled time" condition the timed edge models
   (TBuffer, TFleet, TBelt) take as the legality condition of their timer steps. *)
From Coq Require Import List ZArith Lia Bool Arith.
From FV Require Import Kernel.
Import ListNotations.
Open Scope Z_scope.

(* e is an existing, triggered event all of whose queue entries are due at T *)
Definition Armed (k : kern) (e : nat) (T : Z) : Prop :=
  (e < length (evs k))%nat /\ e_trig (get_ev k e) = true /\
  (forall x, In x (queue k) -> q_ev x = e -> q_time x = T).
Definition Queued (k : kern) (e : nat) : Prop := exists x, In x (queue k) /\ q_ev x = e.

(* ------------------------------------------------------------------ every sequence of kernel operations *)
Inductive kstep : kern -> kern -> Prop :=
| KS_new k : kstep k (fst (new_event k))
| KS_timeout k d : kstep k (fst (timeout k d))
| KS_succeed k e k' : succeed k e = Some k' -> kstep k k'
| KS_add_cb k e c : kstep k (add_cb k e c)
| KS_check k c : kstep k (check k c)
| KS_any_of k es : kstep k (fst (any_of k es))
| KS_request k rid r k' r' q : res_request k rid r = Some (k', r', q) -> kstep k k'
| KS_release k rid r q k' r' g : res_release k rid r q = Some (k', r', g) -> kstep k k'
| KS_trig_put k r k' r' : res_trig_put k r = Some (k', r') -> kstep k k'
| KS_trig_get k r k' r' : res_trig_get k r = Some (k', r') -> kstep k k'
| KS_pop k k' e cbs : pop k = Some (k', e, cbs) -> kstep k k'.
Inductive ksteps : kern -> kern -> Prop :=
| KS_refl k : ksteps k k
| KS_step k k' k'' : ksteps k k' -> kstep k' k'' -> ksteps k k''.

(* What the three moves of Kernel.Kept and a pop keep, every sequence of operations keeps. *)
Section Kept.
  Variable P : kern -> Prop.
  Hypothesis P_new : forall k, P k -> P (fst (new_event k)).
  Hypothesis P_add_cb : forall k e c, P k -> P (add_cb k e c).
  Hypothesis P_trigger : forall k e p d, e_trig (get_ev k e) = false -> P k -> P (schedule (mark_trig k e) e p d).
  Hypothesis P_pop : forall k k' e cbs, pop k = Some (k', e, cbs) -> P k -> P k'.

  Lemma kept_kstep k k' : kstep k k' -> P k -> P k'.
  Proof.
    (* no condition on the delays and callbacks that occur: Kernel.Kept at okd, okcb := True *)
    pose proof (fun k e c (_ : True) => P_add_cb k e c) as A. pose proof (fun k e p d (_ : True) => P_trigger k e p d) as T.
    intros S H. destruct S; eauto using (kept_succeed P (fun _ => True) I T), (kept_timeout P (fun _ => True) P_new T),
      (kept_check P (fun _ => True) I T), (kept_any_of P (fun _ => True) (fun _ => True) I (fun _ => I) P_new A T),
      (kept_res_request P (fun _ => True) (fun _ => True) I (fun _ => I) P_new A T),
      (kept_res_release P (fun _ => True) (fun _ => True) I (fun _ => I) P_new A T),
      (kept_res_trig_put P (fun _ => True) I T), (kept_res_trig_get P (fun _ => True) I T).
  Qed.
  Lemma kept_ksteps k k' : ksteps k k' -> P k -> P k'.
  Proof. induction 1 as [|k k' k'' _ IH S]; intros H; [exact H|]. apply (kept_kstep _ _ S), IH, H. Qed.
End Kept.

Lemma armed_new_event k e T : Armed k e T -> Armed (fst (new_event k)) e T.
Proof.
  intros (L & Tr & Q). unfold new_event, Armed, get_ev. cbn. rewrite app_length. repeat split; [lia| |exact Q].
  rewrite app_nth1 by exact L. exact Tr.
Qed.
Lemma armed_mark_trig k e T e' : Armed k e T -> Armed (mark_trig k e') e T.
Proof.
  intros (L & Tr & Q). unfold mark_trig, Armed, get_ev in *. cbn. rewrite upd_length. repeat split; auto.
  destruct (Nat.eq_dec e' e) as [->|N]; [rewrite nth_upd_same by exact L; reflexivity|rewrite nth_upd_other by exact N; exact Tr].
Qed.
Lemma armed_add_cb k e T e' c : Armed k e T -> Armed (add_cb k e' c) e T.
Proof.
  intros (L & Tr & Q). unfold add_cb, Armed, get_ev in *. cbn. rewrite upd_length. repeat split; auto.
  destruct (Nat.eq_dec e' e) as [->|N]; [rewrite nth_upd_same by exact L; exact Tr|rewrite nth_upd_other by exact N; exact Tr].
Qed.
Lemma armed_schedule k e T e' p d : e' <> e -> Armed k e T -> Armed (schedule k e' p d) e T.
Proof.
  intros N (L & Tr & Q). unfold schedule, Armed, get_ev in *. cbn. repeat split; auto.
  intros x Hx Ex. apply qins_in in Hx. destruct Hx as [->|Hx]; [cbn in Ex; congruence|auto].
Qed.
(* popping: the armed event, if it is the one popped, is processed at exactly T; otherwise it stays armed *)
Lemma armed_pop k e T k' e' cbs :
  pop k = Some (k', e', cbs) -> Armed k e T -> (e' = e -> now k' = T) /\ Armed k' e T.
Proof.
  unfold pop. destruct (queue k) as [|x q] eqn:EQ; [discriminate|]. intros [= <- <- _] (L & Tr & Q). split.
  - intros E. cbn. apply Q; [rewrite EQ; left; reflexivity|exact E].
  - unfold Armed, get_ev. cbn. rewrite upd_length. repeat split; auto.
    + destruct (Nat.eq_dec (q_ev x) e) as [->|N]; [rewrite nth_upd_same by exact L; exact Tr|rewrite nth_upd_other by exact N; exact Tr].
    + intros y Hy. apply Q. rewrite EQ. right. exact Hy.
Qed.

(* arming: the event a timeout creates is armed for now + d, provided the queue refers to existing events only *)
Definition QRefs (k : kern) : Prop := forall x, In x (queue k) -> (q_ev x < length (evs k))%nat.
Lemma timeout_arms k d : QRefs k -> let '(k1, e) := timeout k d in Armed k1 e (now k + d) /\ Queued k1 e.
Proof.
  intros R. unfold timeout, new_event. cbn. set (e := length (evs k)). split.
  - unfold Armed, get_ev, schedule, mark_trig. cbn. rewrite upd_length, app_length. cbn. repeat split; [lia| |].
    + rewrite nth_upd_same by (rewrite app_length; cbn; lia). reflexivity.
    + intros x Hx Ex. apply qins_in in Hx. destruct Hx as [->|Hx]; [reflexivity|]. apply R in Hx. unfold e in *. lia.
  - exists {| q_time := now k + d; q_prio := NORMAL; q_seq := seq k; q_ev := e |}. split; [|reflexivity].
    unfold schedule. cbn. apply qins_in. left. reflexivity.
Qed.

(* while the entry is queued the clock has not passed T (queue invariant) *)
Lemma armed_not_late k e T : QInv k -> Armed k e T -> Queued k e -> now k <= T.
Proof.
  intros QI (_ & _ & Q) (x & Hx & Ex). unfold QInv in QI. rewrite Forall_forall in QI. rewrite <- (Q x Hx Ex). apply QI. exact Hx.
Qed.

Lemma armed_ksteps k k' e T : ksteps k k' -> Armed k e T -> Armed k' e T.
Proof.
  apply (kept_ksteps (fun k => Armed k e T)); clear k k'.
  - intros k. apply armed_new_event.
  - intros k e' c. apply armed_add_cb.
  - intros k e' p d U A. apply armed_schedule; [|apply armed_mark_trig, A].
    intros ->. destruct A as (_ & Tr & _). congruence.
  - intros k k' e' cbs Po A. apply (armed_pop _ _ _ _ _ _ Po A).
Qed.

(* THE CONTRACT: after [timeout k d], along every sequence of kernel operations, whenever the event is popped the clock then
   shows exactly now k + d *)
Theorem timeout_processed_exactly_when_due k d k1 e :
  QRefs k -> timeout k d = (k1, e) ->
  forall k2 k3 cbs, ksteps k1 k2 -> pop k2 = Some (k3, e, cbs) -> now k3 = now k + d.
Proof.
  intros R E k2 k3 cbs S P. pose proof (timeout_arms k d R) as A. rewrite E in A. destruct A as (A & _).
  pose proof (armed_ksteps _ _ _ _ S A) as A2. destruct (armed_pop _ _ _ _ _ _ P A2) as (H & _). apply H. reflexivity.
Qed.

(* ... and as long as its queue entry is there, the clock has not passed that time *)
Theorem timeout_not_overtaken k d k1 e :
  QRefs k -> timeout k d = (k1, e) ->
  forall k2, ksteps k1 k2 -> QInv k2 -> Queued k2 e -> now k2 <= now k + d.
Proof.
  intros R E k2 S QI Q. pose proof (timeout_arms k d R) as A. rewrite E in A. destruct A as (A & _).
  exact (armed_not_late _ _ _ QI (armed_ksteps _ _ _ _ S A) Q).
Qed.

(* non-vacuity: a timeout of 5 armed at time 0 next to one of 3; the second pop is the first timer, at time 5 *)
Example timer_witness :
  let '(k1, e) := timeout kinit 5 in let '(k2, _) := timeout k1 3 in
  match pop k2 with
  | Some (k3, _, _) => match pop k3 with Some (k4, e', _) => (Nat.eqb e' e, now k4) | None => (false, 0) end
  | None => (false, 0)
  end = (true, 5).
Proof. vm_compute. reflexivity. Qed.

(* ------------------------------------------------------------------ the timer is not lost: until it has been processed its
   entry stays in the queue (no operation removes a queue entry except the pop that processes it) *)
Definition Pending (k : kern) (e : nat) : Prop := (e < length (evs k))%nat /\ (Queued k e \/ e_proc (get_ev k e) = true).

Lemma pending_evs_only k k' e :
  queue k' = queue k -> (length (evs k) <= length (evs k'))%nat ->
  (forall e0, (e0 < length (evs k))%nat -> e_proc (get_ev k' e0) = e_proc (get_ev k e0)) -> Pending k e -> Pending k' e.
Proof.
  intros Q L P (Le & H). split; [lia|]. destruct H as [(x & Hx & Ex)|H]; [left; exists x; rewrite Q; auto|right; rewrite P; auto].
Qed.
Lemma pending_new_event k e : Pending k e -> Pending (fst (new_event k)) e.
Proof.
  apply pending_evs_only; cbn; [reflexivity|rewrite app_length; lia|]. intros e0 L. unfold get_ev. cbn. rewrite app_nth1 by exact L. reflexivity.
Qed.
Lemma pending_mark_trig k e e' : Pending k e -> Pending (mark_trig k e') e.
Proof.
  apply pending_evs_only; cbn; [reflexivity|rewrite upd_length; lia|]. intros e0 L. unfold get_ev at 1. cbn.
  apply (nth_upd_kept e_proc). reflexivity.
Qed.
Lemma pending_add_cb k e e' c : Pending k e -> Pending (add_cb k e' c) e.
Proof.
  apply pending_evs_only; cbn; [reflexivity|rewrite upd_length; lia|]. intros e0 L. unfold get_ev at 1. cbn.
  apply (nth_upd_kept e_proc). reflexivity.
Qed.
Lemma pending_schedule k e e' p d : Pending k e -> Pending (schedule k e' p d) e.
Proof.
  intros (L & H). split; [exact L|]. destruct H as [(x & Hx & Ex)|H]; [left; exists x; split; [|exact Ex]; cbn; apply qins_in; right; exact Hx|right; exact H].
Qed.
Lemma pending_pop k e k' e' cbs : pop k = Some (k', e', cbs) -> Pending k e -> Pending k' e.
Proof.
  unfold pop. destruct (queue k) as [|x q] eqn:EQ; [discriminate|]. intros [= <- <- _] (L & H). split; [cbn; rewrite upd_length; exact L|].
  destruct (Nat.eq_dec (q_ev x) e) as [E|N].
  - right. unfold get_ev. cbn. rewrite E. rewrite nth_upd_same by exact L. reflexivity.
  - destruct H as [(y & Hy & Ey)|H].
    + left. exists y. cbn. split; [|exact Ey]. rewrite EQ in Hy. destruct Hy as [<-|Hy]; [congruence|exact Hy].
    + right. unfold get_ev. cbn. rewrite nth_upd_other by exact N. exact H.
Qed.
Lemma pending_ksteps k k' e : ksteps k k' -> Pending k e -> Pending k' e.
Proof.
  apply (kept_ksteps (fun k => Pending k e)); clear k k'.
  - intros k. apply pending_new_event.
  - intros k e' c. apply pending_add_cb.
  - intros k e' p d _ A. apply pending_schedule, pending_mark_trig, A.
  - intros k k' e' cbs. apply pending_pop.
Qed.

Theorem timeout_not_lost k d k1 e :
  QRefs k -> timeout k d = (k1, e) -> forall k2, ksteps k1 k2 -> Queued k2 e \/ e_proc (get_ev k2 e) = true.
Proof.
  intros R E k2 S. pose proof (timeout_arms k d R) as A. rewrite E in A. destruct A as ((L & _) & Q).
  assert (P : Pending k1 e) by (split; [exact L|left; exact Q]).
  destruct (pending_ksteps _ _ _ S P) as (_ & H). exact H.
Qed.
