(* What one operation of the bound-item store does, in two stages: the operation's own update of
   the fields and its result ([effect]), then the trigger loops it runs on the updated store
   ([trigs]).  [step_shape] analyses [StoreB.step] once; the invariants are proved from it, by cases on
   [effect] and by induction along [trigs].  (It says nothing of the tokens triggered nor why a call is
   refused: the theorems about those compute on [step].) *)
From Coq Require Import List ZArith Lia Bool Arith.
From FV Require Import ListLemmas StoreB.
Import ListNotations.


Lemma trig_put_cases s :
  ((putq s = [] \/ allow_put s = false) /\ trig_put s = (s, [])) \/
  exists r q, putq s = r :: q /\ allow_put s = true /\
              trig_put s = (set_putres (set_putq s q) (putres s ++ [r]), [r_tok r]).
Proof.
  unfold trig_put. destruct (putq s) as [|r q]; auto.
  destruct (allow_put s); auto. right. exists r, q. auto.
Qed.

Lemma trig_get_cases s s' ts :
  trig_get s = Some (s', ts) ->
  ((getq s = [] \/ allow_get s = false) /\ s' = s /\ ts = []) \/
  exists r q it, getq s = r :: q /\ allow_get s = true /\ pick s = Some it /\
                 s' = set_getres (set_getq s q) (getres s ++ [(r, it)]) /\ ts = [r_tok r].
Proof.
  unfold trig_get. destruct (getq s) as [|r q]; [intros [= <- <-]; auto|].
  destruct (allow_get s); [|intros [= <- <-]; auto].
  destruct (pick s) as [it|]; [|discriminate]. intros [= <- <-]. right. exists r, q, it. auto.
Qed.

Lemma let_trig_put s (r : out) :
  (let '(s2, ts) := trig_put s in (s2, r, ts)) = (fst (trig_put s), r, snd (trig_put s)).
Proof. destruct (trig_put s); reflexivity. Qed.

Lemma trig_get_nogrant s s' ts :
  trig_get s = Some (s', ts) -> allow_get s = false \/ getq s = [] -> s' = s.
Proof.
  intros E HC. destruct (trig_get_cases _ _ _ E) as [(_ & -> & _)|(r & q & it & Q & A & _)]; auto.
  destruct HC; congruence.
Qed.


Inductive side := SPut | SGet.

(* [trigs k s s']: running the trigger loops of the sides listed in [k], in that order, takes
   [s] to [s'] (and none of them crashes) *)
Inductive trigs : list side -> store -> store -> Prop :=
| trigs_nil s : trigs [] s s
| trigs_put k s s' : trigs k (fst (trig_put s)) s' -> trigs (SPut :: k) s s'
| trigs_get k s s1 ts s' : trig_get s = Some (s1, ts) -> trigs k s1 s' -> trigs (SGet :: k) s s'.

Lemma trigs_lift (P : store -> Prop) :
  (forall s, P s -> P (fst (trig_put s))) ->
  (forall s s' ts, trig_get s = Some (s', ts) -> P s -> P s') ->
  forall k s s', trigs k s s' -> P s -> P s'.
Proof. intros HP HG k s s' T. induction T; eauto. Qed.

(* [effect s o s1 r k]: the call [o] is accepted in [s]; its own update gives [s1], its result
   is [r], and it then runs the trigger loops [k].  The premises are the tests that [step] makes. *)
Inductive effect (s : store) : op -> store -> out -> list side -> Prop :=
| E_rput p pr :
    effect s (RPut p pr)
      (set_next (set_putq s (ins {| r_tok := next s; r_pid := p; r_prio := eff_prio s pr |} (putq s))) (S (next s)))
      (OTok (next s)) [SPut]
| E_rget p pr :
    effect s (RGet p pr)
      (set_next (set_getq s (ins {| r_tok := next s; r_pid := p; r_prio := eff_prio s pr |} (getq s))) (S (next s)))
      (OTok (next s)) [SGet]
| E_put p t i
    (OWN : existsb (owns p t) (putres s) = true) (ROOM : length (transit s) + length (ready s) < cap s) :
    effect s (Put p t i)
      (set_transit (set_putres s (remove_first (owns p t) (putres s))) (transit s ++ [i]))
      OOk (match s_kind s with KFleet => [SGet; SGet] | _ => [SGet] end)
| E_put_full p t i
    (OWN : existsb (owns p t) (putres s) = true) (FULL : cap s <= length (transit s) + length (ready s)) :
    effect s (Put p t i) (set_putres s (remove_first (owns p t) (putres s))) (OErr ERuntime) []
| E_get p t i r it
    (OWN : existsb (owns2 p t) (getres s) = true) (IDX : index_where (tokb2 t) (getres s) = Some i)
    (NTH : nth_error (getres s) i = Some (r, it)) (RDY : existsb (Nat.eqb it) (ready s) = true) :
    effect s (Get p t)
      (set_ready (set_getres s (remove_nth i (getres s))) (remove_first (Nat.eqb it) (ready s)))
      (OItem it) [SPut]
| E_cput_q t (INQ : existsb (tokb t) (putq s) = true) :
    effect s (CPut t) (set_putq s (remove_first (tokb t) (putq s))) OOk [SPut]
| E_cput_r t (NOQ : existsb (tokb t) (putq s) = false) (INR : existsb (tokb t) (putres s) = true) :
    effect s (CPut t) (set_putres s (remove_first (tokb t) (putres s))) OOk [SPut]
| E_cget_q t (INQ : existsb (tokb t) (getq s) = true) :
    effect s (CGet t) (set_getq s (remove_first (tokb t) (getq s))) OOk [SGet]
| E_cget_r t i r it
    (NOQ : existsb (tokb t) (getq s) = false) (IDX : index_where (tokb2 t) (getres s) = Some i)
    (NTH : nth_error (getres s) i = Some (r, it)) (RDY : existsb (Nat.eqb it) (ready s) = true) :
    effect s (CGet t) (set_getres s (remove_nth i (getres s))) OOk [SGet]
| E_ready i
    (INT : existsb (Nat.eqb i) (transit s) = true)
    (GUARD : ready_guard s (remove_first (Nat.eqb i) (transit s)) = true) :
    effect s (Ready i)
      (set_ready (set_transit s (remove_first (Nat.eqb i) (transit s))) (ready s ++ [i])) OOk [SGet; SPut]
| E_ready_full i
    (INT : existsb (Nat.eqb i) (transit s) = true)
    (GUARD : ready_guard s (remove_first (Nat.eqb i) (transit s)) = false) :
    effect s (Ready i) (set_transit s (remove_first (Nat.eqb i) (transit s))) (OErr ERuntime) []
| E_gate b : effect s (SetGate b) (set_gate s b) OOk []
| E_trigput : effect s TrigPut s OOk [SPut]
| E_sync n (LE : next s <= n) : effect s (Sync n) (set_next s n) OOk []
| E_sync_old n (LT : n < next s) : effect s (Sync n) s OOk [].

(* a step either leaves the store as it was and reports an error (the call is refused, or a
   trigger loop crashes), or is an [effect] followed by its trigger loops *)
Inductive shape (s : store) (o : op) : store * out * list tok -> Prop :=
| shape_err e : shape s o (s, OErr e, [])
| shape_eff s1 r k s' ts : effect s o s1 r k -> trigs k s1 s' -> shape s o (s', r, ts).

Lemma shape_trig_put s o s1 r :
  effect s o s1 r [SPut] -> shape s o (let '(s2, ts) := trig_put s1 in (s2, r, ts)).
Proof.
  intros E. destruct (trig_put s1) as [s2 ts] eqn:T. eapply shape_eff; [exact E|].
  apply trigs_put. rewrite T. constructor.
Qed.

Lemma shape_after_get s o s1 r :
  effect s o s1 r [SGet] -> shape s o (after_get s r (trig_get s1)).
Proof.
  intros E. destruct (trig_get s1) as [[s2 ts]|] eqn:T; simpl; [|constructor].
  eapply shape_eff; [exact E|]. eapply trigs_get; [exact T|constructor].
Qed.

Theorem step_shape s o : shape s o (step s o).
Proof.
  destruct o; simpl.
  - apply shape_trig_put. constructor.
  - apply shape_after_get. constructor.
  - destruct (existsb (owns p t) (putres s)) eqn:EO; [|constructor].
    destruct (Nat.ltb_spec (length (transit s) + length (ready s)) (cap s)) as [L|L].
    2:{ eapply shape_eff; [apply E_put_full; assumption|constructor]. }
    generalize (E_put s p t i EO L).
    destruct (s_kind s); intros E; try (apply shape_after_get; exact E).
    destruct (trig_get _) as [[s3 ts1]|] eqn:T1; [|constructor].
    destruct (trig_get s3) as [[s4 ts2]|] eqn:T2; [|constructor].
    eapply shape_eff; [exact E|]. eapply trigs_get; [exact T1|]. eapply trigs_get; [exact T2|constructor].
  - destruct (existsb (owns2 p t) (getres s)) eqn:EO; [|constructor].
    destruct (index_where (tokb2 t) (getres s)) as [i|] eqn:EI; [|constructor].
    destruct (nth_error (getres s) i) as [[r it]|] eqn:EN; [|constructor].
    destruct (existsb (Nat.eqb it) (ready s)) eqn:ER; [|constructor].
    apply shape_trig_put. eapply E_get; eassumption.
  - destruct (existsb (tokb t) (putq s)) eqn:EQ.
    { apply shape_trig_put. constructor. exact EQ. }
    destruct (existsb (tokb t) (putres s)) eqn:ER; [|constructor].
    apply shape_trig_put. constructor; assumption.
  - destruct (existsb (tokb t) (getq s)) eqn:EQ.
    { apply shape_after_get. constructor. exact EQ. }
    destruct (index_where (tokb2 t) (getres s)) as [i|] eqn:EI; [|constructor].
    destruct (nth_error (getres s) i) as [[r it]|] eqn:EN; [|constructor].
    destruct (existsb (Nat.eqb it) (ready s)) eqn:ER; [|constructor].
    apply shape_after_get. eapply E_cget_r; eassumption.
  - destruct (existsb (Nat.eqb i) (transit s)) eqn:EX; [|constructor].
    destruct (ready_guard s _) eqn:RG.
    2:{ eapply shape_eff; [apply E_ready_full; assumption|constructor]. }
    destruct (trig_get _) as [[s2 ts1]|] eqn:T1; [|constructor].
    destruct (trig_put s2) as [s3 ts2] eqn:T2.
    eapply shape_eff; [apply E_ready; assumption|]. eapply trigs_get; [exact T1|].
    apply trigs_put. rewrite T2. constructor.
  - eapply shape_eff; constructor.
  - apply shape_trig_put. constructor.
  - destruct (Nat.leb_spec (next s) n); eapply shape_eff; constructor; assumption.
Qed.

(* a property that the trigger functions keep holds after a step if it holds of the state
   before (for the refused calls) and of the operation's own update *)
Lemma step_lift (P : store -> Prop) s o :
  (forall s1, P s1 -> P (fst (trig_put s1))) ->
  (forall s1 s2 ts, trig_get s1 = Some (s2, ts) -> P s1 -> P s2) ->
  P s -> (forall s1 r k, effect s o s1 r k -> P s1) -> P (step_st s o).
Proof.
  intros HP HG H0 HE. unfold step_st.
  destruct (step_shape s o) as [e|s1 r k s' ts E T]; simpl; [exact H0|].
  eapply trigs_lift; eauto.
Qed.
