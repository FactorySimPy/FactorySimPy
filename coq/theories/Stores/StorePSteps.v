(* What one operation of the positional store does, in two stages: the operation's own update of
   the fields and its result ([effect]), then the one trigger loop it runs on the updated store
   ([trig]).  [step_shape] analyses [StoreP.step] once; the invariants are proved from it, by cases on
   [effect].  (It says nothing of the tokens triggered nor why a call is refused: the theorems about those
   compute on [step].) *)
From Coq Require Import List ZArith Lia Bool Arith.
From FV Require Import ListLemmas StoreP.
Import ListNotations.


Lemma trig_put_cases s :
  ((putq s = [] \/ allow_put s = false) /\ trig_put s = (s, [])) \/
  exists r q, putq s = r :: q /\ allow_put s = true /\
              trig_put s = (set_putres (set_putq s q) (putres s ++ [r]), [r_tok r]).
Proof.
  unfold trig_put. destruct (putq s) as [|r q]; auto.
  destruct (allow_put s); auto. right. exists r, q. auto.
Qed.

(* one attempt on the head of the retrieval queue: nothing happens, or the first matching
   unreserved item is moved behind the reserved prefix and bound to the head request *)
Lemma trig_get1_cases s :
  trig_get1 s = (s, []) \/
  exists r q a x b,
    getq s = r :: q /\ allow_get s = true /\
    split_first (fmatch (now s) (tdelay s) (eff_flt s r)) (skipn (length (getres s)) (items s)) = Some (a, x, b) /\
    trig_get1 s = (set_getres (set_getq (set_items s (firstn (length (getres s)) (items s) ++ x :: a ++ b)) q)
                              (getres s ++ [r]), [r_tok r]).
Proof.
  unfold trig_get1. destruct (getq s) as [|r q]; auto.
  destruct (allow_get s); auto.
  destruct (split_first _ _) as [[[a x] b]|] eqn:E; auto.
  right. exists r, q, a, x, b. auto.
Qed.

Lemma trig_get1_nogrant s : allow_get s = false \/ getq s = [] -> trig_get1 s = (s, []).
Proof.
  unfold trig_get1. intros HC. destruct (getq s) as [|r q]; auto.
  destruct HC as [HC|HC]; [|discriminate]. rewrite HC. auto.
Qed.

(* the loop goes on after a grant, and only then *)
Lemma trig_get_n_S n s :
  fst (trig_get_n (S n) s) =
  match snd (trig_get1 s) with [] => fst (trig_get1 s) | _ => fst (trig_get_n n (fst (trig_get1 s))) end.
Proof. simpl. destruct (trig_get1 s) as [s1 [|t ts]]; simpl; auto. destruct (trig_get_n n s1); auto. Qed.

(* whatever one attempt preserves, the whole trigger loop preserves *)
Lemma trig_get_n_lift (P : store -> Prop) :
  (forall s, P s -> P (fst (trig_get1 s))) -> forall n s, P s -> P (fst (trig_get_n n s)).
Proof.
  intros H n. induction n as [|n IH]; intros s Hs; [exact Hs|].
  rewrite trig_get_n_S. specialize (H s Hs). destruct (snd (trig_get1 s)); auto.
Qed.

Lemma trig_get_lift (P : store -> Prop) :
  (forall s, P s -> P (fst (trig_get1 s))) -> forall s, P s -> P (fst (trig_get s)).
Proof.
  intros H s Hs. unfold trig_get. destruct (s_kind s); auto. apply trig_get_n_lift; auto.
Qed.

Lemma trig_get_nogrant s : allow_get s = false \/ getq s = [] -> fst (trig_get s) = s.
Proof.
  intros HC. unfold trig_get. destruct (s_kind s); try (rewrite trig_get1_nogrant; auto).
  destruct (length (getq s)); simpl; auto. rewrite trig_get1_nogrant; auto.
Qed.

(* the form in which [step] calls the triggers *)
Lemma let_trig (x : store * list tok) (r : out) :
  (let '(s2, ts) := x in (s2, r, ts)) = (fst x, r, snd x).
Proof. destruct x; reflexivity. Qed.

Inductive side := SPut | SGet.

Definition trig (k : option side) (s : store) : store :=
  match k with
  | None => s
  | Some SPut => fst (trig_put s)
  | Some SGet => fst (trig_get s)
  end.

(* [effect s o s1 r k]: the call [o] is accepted in [s]; its own update gives [s1], its result
   is [r], and it then runs the trigger loop [k].  The premises are the tests that [step] makes. *)
Inductive effect (s : store) : op -> store -> out -> option side -> Prop :=
| E_rput p pr :
    effect s (RPut p pr)
      (set_next (set_putq s (ins {| r_tok := next s; r_pid := p; r_prio := eff_prio s pr; r_flt := FMod 1 0 |} (putq s)))
                (S (next s)))
      (OTok (next s)) (Some SPut)
| E_rget p pr f :
    effect s (RGet p pr f)
      (set_next (set_getq s (ins {| r_tok := next s; r_pid := p; r_prio := eff_prio s pr; r_flt := f |} (getq s)))
                (S (next s)))
      (OTok (next s)) (Some SGet)
| E_put p t i
    (OWN : existsb (owns p t) (putres s) = true) (ROOM : length (items s) < cap s) :
    effect s (Put p t i)
      (set_items (set_putres s (remove_first (owns p t) (putres s))) (items s ++ [stamp s i])) OOk (Some SGet)
| E_put_full p t i
    (OWN : existsb (owns p t) (putres s) = true) (FULL : cap s <= length (items s)) :
    effect s (Put p t i) (set_putres s (remove_first (owns p t) (putres s))) (OErr ERuntime) None
| E_get p t i it
    (OWN : existsb (owns p t) (getres s) = true) (IDX : index_where (tokb t) (getres s) = Some i)
    (NTH : nth_error (items s) i = Some it) :
    effect s (Get p t)
      (set_getres (set_items s (remove_nth i (items s))) (remove_nth i (getres s))) (OItem it) (Some SPut)
| E_cput_q t (INQ : existsb (tokb t) (putq s) = true) :
    effect s (CPut t) (set_putq s (remove_first (tokb t) (putq s))) OOk (Some SPut)
| E_cput_r t (NOQ : existsb (tokb t) (putq s) = false) (INR : existsb (tokb t) (putres s) = true) :
    effect s (CPut t) (set_putres s (remove_first (tokb t) (putres s))) OOk (Some SPut)
| E_cget_q t (INQ : existsb (tokb t) (getq s) = true) :
    effect s (CGet t) (set_getq s (remove_first (tokb t) (getq s))) OOk (Some SGet)
| E_cget_r t i it
    (NOQ : existsb (tokb t) (getq s) = false) (IDX : index_where (tokb t) (getres s) = Some i)
    (NTH : nth_error (items s) i = Some it) :
    effect s (CGet t)
      (set_getres (set_items s (insert_at (length (getres s) - 1) it (remove_nth i (items s))))
                  (remove_nth i (getres s)))
      OOk (Some SGet)
| E_retrig : effect s Retrig s OOk (Some SGet)
| E_tick d (POS : (0 <= d)%Z) : effect s (Tick d) (set_now s (now s + d)%Z) OOk None
| E_sync n (LE : next s <= n) : effect s (Sync n) (set_next s n) OOk None
| E_sync_old n (LT : n < next s) : effect s (Sync n) s OOk None.

(* a step either refuses the call and leaves the store as it was, or is an [effect] followed
   by its trigger loop *)
Inductive shape (s : store) (o : op) : store * out * list tok -> Prop :=
| shape_err e : shape s o (s, OErr e, [])
| shape_eff s1 r k ts : effect s o s1 r k -> shape s o (trig k s1, r, ts).

Lemma shape_trig_put s o s1 r :
  effect s o s1 r (Some SPut) -> shape s o (let '(s2, ts) := trig_put s1 in (s2, r, ts)).
Proof. intros E. rewrite let_trig. exact (shape_eff s o s1 r (Some SPut) _ E). Qed.

Lemma shape_trig_get s o s1 r :
  effect s o s1 r (Some SGet) -> shape s o (let '(s2, ts) := trig_get s1 in (s2, r, ts)).
Proof. intros E. rewrite let_trig. exact (shape_eff s o s1 r (Some SGet) _ E). Qed.

Lemma shape_plain s o s1 r ts : effect s o s1 r None -> shape s o (s1, r, ts).
Proof. intros E. exact (shape_eff s o s1 r None ts E). Qed.

Theorem step_shape s o : shape s o (step s o).
Proof.
  destruct o; simpl.
  - apply shape_trig_put. constructor.
  - apply shape_trig_get. constructor.
  - destruct (existsb (owns p t) (putres s)) eqn:EO; [|constructor].
    destruct (Nat.ltb_spec (length (items s)) (cap s)) as [L|L].
    + apply shape_trig_get. constructor; assumption.
    + apply shape_plain. constructor; assumption.
  - destruct (existsb (owns p t) (getres s)) eqn:EO; [|constructor].
    destruct (index_where (tokb t) (getres s)) as [i|] eqn:EI; [|constructor].
    destruct (nth_error (items s) i) as [it|] eqn:EN; [|constructor].
    apply shape_trig_put. constructor; assumption.
  - destruct (existsb (tokb t) (putq s)) eqn:EQ.
    { apply shape_trig_put. constructor. exact EQ. }
    destruct (existsb (tokb t) (putres s)) eqn:ER; [|constructor].
    apply shape_trig_put. constructor; assumption.
  - destruct (existsb (tokb t) (getq s)) eqn:EQ.
    { apply shape_trig_get. constructor. exact EQ. }
    destruct (index_where (tokb t) (getres s)) as [i|] eqn:EI; [|constructor].
    destruct (nth_error (items s) i) as [it|] eqn:EN; [|constructor].
    apply shape_trig_get. constructor; assumption.
  - apply shape_trig_get. constructor.
  - destruct (Z.leb_spec 0 d); [|constructor]. apply shape_plain. constructor. assumption.
  - destruct (Nat.leb_spec (next s) n); apply shape_plain; constructor; assumption.
Qed.

(* a property that the trigger functions keep holds after a step if it holds of the state
   before (for the refused calls) and of the operation's own update *)
Lemma step_lift (P : store -> Prop) s o :
  (forall s1, P s1 -> P (fst (trig_put s1))) ->
  (forall s1, P s1 -> P (fst (trig_get s1))) ->
  P s -> (forall s1 r k, effect s o s1 r k -> P s1) -> P (step_st s o).
Proof.
  intros HP HG H0 HE. unfold step_st.
  destruct (step_shape s o) as [e|s1 r k ts E]; simpl; [exact H0|].
  specialize (HE _ _ _ E). destruct k as [[|]|]; simpl; auto.
Qed.
