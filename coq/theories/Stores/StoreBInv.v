(* Invariants of the bound-item store model (BufferStore / FleetStore / belt stores' API layer),
   proved for every operation and lifted to every history by induction over the op list. *)
From Coq Require Import List ZArith Lia Bool Arith Permutation.
From FV Require Import ListLemmas ListLemmas2 StoreB StoreBSteps.
Import ListNotations.

Definition contents (s : store) : list item := transit s ++ ready s.

(* the main invariant: capacity (C01), distinct contents, injective binding into ready (C02) *)
Definition Inv (s : store) : Prop :=
  used s <= cap s /\ NoDup (contents s) /\ NoDup (reserved s) /\ incl (reserved s) (ready s).

Lemma inv_ready_nodup s : Inv s -> NoDup (ready s).
Proof. intros (_ & ND & _). eapply NoDup_app_r; eauto. Qed.

(* ------------------------------------------------------------------ trig_put *)

Lemma trig_put_fields s :
  let s' := fst (trig_put s) in
  cap s' = cap s /\ transit s' = transit s /\ ready s' = ready s /\ getq s' = getq s /\
  getres s' = getres s /\ next s' = next s /\ s_kind s' = s_kind s /\ s_mode s' = s_mode s /\
  gate s' = gate s.
Proof. destruct (trig_put_cases s) as [(_ & ->)|(r & q & _ & _ & ->)]; simpl; repeat split. Qed.

Lemma trig_put_contents s : contents (fst (trig_put s)) = contents s.
Proof. unfold contents. destruct (trig_put_fields s) as (_ & -> & -> & _). reflexivity. Qed.

Lemma trig_put_inv s : Inv s -> Inv (fst (trig_put s)).
Proof.
  intros HI. destruct (trig_put_cases s) as [(_ & ->)|(r & q & _ & A & ->)]; [exact HI|].
  destruct HI as (H1 & H2 & H3 & H4). apply andb_prop in A as (A & _). apply Nat.ltb_lt in A.
  unfold Inv, used, contents, reserved in *; simpl. rewrite app_length; simpl.
  repeat split; auto. lia.
Qed.

(* ------------------------------------------------------------------ trig_get *)

Lemma pick_in s it : pick s = Some it -> In it (ready s) /\ ~ In it (reserved s).
Proof.
  unfold pick, unreserved. intros H.
  assert (In it (filter (fun it0 => negb (existsb (Nat.eqb it0) (reserved s))) (ready s))) as HI.
  { destruct (s_mode s); apply hd_error_In in H; auto. apply in_rev; auto. }
  apply filter_In in HI. destruct HI as (HI1 & HN). apply negb_true_iff, existsb_eqb_nIn in HN. auto.
Qed.

Lemma pick_some s : Inv s -> length (getres s) < length (ready s) -> exists it, pick s = Some it.
Proof.
  intros HI L. pose proof (inv_ready_nodup _ HI) as ND.
  destruct (NoDup_incl_lt_ex (ready s) (reserved s) ND) as (x & Hx & Nx).
  { unfold reserved. rewrite map_length. exact L. }
  assert (In x (unreserved s)) as HU.
  { unfold unreserved. apply filter_In. split; auto. apply negb_true_iff, existsb_eqb_nIn; auto. }
  unfold pick. destruct (s_mode s).
  - eapply In_hd_error_some; exact HU.
  - apply in_rev in HU. eapply In_hd_error_some; exact HU.
Qed.

(* under the invariant the retrieval trigger never meets an empty list of unreserved items *)
Lemma trig_get_inv s : Inv s -> exists s' ts, trig_get s = Some (s', ts) /\ Inv s'.
Proof.
  intros HI. pose proof HI as (H1 & H2 & H3 & H4). unfold trig_get.
  destruct (getq s) as [|r q]; [eauto|].
  unfold allow_get. destruct (Nat.ltb_spec (length (getres s)) (length (ready s))); [|eauto].
  destruct (pick_some s HI H) as [it E]. rewrite E.
  apply pick_in in E as (Ei & En).
  eexists _, _. split; [reflexivity|].
  unfold Inv, used, contents, reserved in *; simpl. rewrite map_app; simpl.
  repeat split; auto.
  - apply NoDup_snoc; auto.
  - apply incl_app; auto. intros x [<-|[]]; auto.
Qed.

Lemma trig_get_keeps_inv s s' ts : trig_get s = Some (s', ts) -> Inv s -> Inv s'.
Proof. intros E HI. destruct (trig_get_inv s HI) as (s2 & ts2 & E2 & I2). congruence. Qed.

(* so a step that ends with the retrieval trigger returns its own result, not the crash report *)
Lemma after_get_ok s0 r s1 : Inv s1 -> snd (fst (after_get s0 r (trig_get s1))) = r.
Proof. intros HI. destruct (trig_get_inv s1 HI) as (s2 & ts & -> & _). reflexivity. Qed.

Lemma trig_get_fields s s' ts :
  trig_get s = Some (s', ts) ->
  cap s' = cap s /\ transit s' = transit s /\ ready s' = ready s /\ putq s' = putq s /\
  putres s' = putres s /\ next s' = next s /\ s_kind s' = s_kind s /\ s_mode s' = s_mode s /\
  gate s' = gate s.
Proof.
  intros E. destruct (trig_get_cases _ _ _ E) as [(_ & -> & _)|(r & q & it & _ & _ & _ & -> & _)];
    simpl; repeat split.
Qed.

Lemma trig_get_contents s s' ts : trig_get s = Some (s', ts) -> contents s' = contents s.
Proof. intros E. unfold contents. destruct (trig_get_fields _ _ _ E) as (_ & -> & -> & _). reflexivity. Qed.

Lemma trigs_contents k s s' : trigs k s s' -> contents s' = contents s.
Proof.
  intros T. induction T; auto; rewrite IHT; [apply trig_put_contents|eapply trig_get_contents; eauto].
Qed.

(* ------------------------------------------------------------------ one step *)

(* the side condition on the caller: an object is put only while it is not inside the store *)
Definition fresh_op (s : store) (o : op) : Prop :=
  match o with Put _ _ i => ~ In i (contents s) | _ => True end.

Lemma inv_set_putq s q : Inv s -> Inv (set_putq s q).
Proof. unfold Inv, used, contents, reserved; simpl; auto. Qed.
Lemma inv_set_getq s q : Inv s -> Inv (set_getq s q).
Proof. unfold Inv, used, contents, reserved; simpl; auto. Qed.
Lemma inv_set_next s n : Inv s -> Inv (set_next s n).
Proof. unfold Inv, used, contents, reserved; simpl; auto. Qed.
Lemma inv_set_gate s b : Inv s -> Inv (set_gate s b).
Proof. unfold Inv, used, contents, reserved; simpl; auto. Qed.

Lemma inv_drop_putres s f :
  Inv s -> Inv (set_putres s (remove_first f (putres s))).
Proof.
  intros (H1 & H2 & H3 & H4). unfold Inv, used, contents, reserved in *; simpl.
  pose proof (remove_first_len f (putres s)). repeat split; auto. lia.
Qed.

Lemma inv_put_item s f i :
  Inv s -> ~ In i (contents s) -> existsb f (putres s) = true ->
  Inv (set_transit (set_putres s (remove_first f (putres s))) (transit s ++ [i])).
Proof.
  intros (H1 & H2 & H3 & H4) HF E. pose proof (remove_first_len_ex _ _ E) as L.
  unfold Inv, used, contents, reserved in *; simpl. rewrite app_length; simpl.
  repeat split; auto; [lia|]. rewrite <- app_assoc. simpl.
  apply NoDup_app_intro.
  - eapply NoDup_app_l; eauto.
  - constructor; [|eapply NoDup_app_r; eauto]. intros Hi. apply HF, in_or_app; auto.
  - intros x Ha [<-|Hb]; [apply HF, in_or_app; auto|]. eapply NoDup_app_disj; eauto.
Qed.

Lemma inv_drop_getres s i : Inv s -> Inv (set_getres s (remove_nth i (getres s))).
Proof.
  intros (H1 & H2 & H3 & H4). unfold Inv, used, contents, reserved in *; simpl.
  rewrite map_remove_nth. repeat split; auto.
  - apply NoDup_remove_nth; auto.
  - intros x Hx. apply H4. eapply remove_nth_incl; eauto.
Qed.

Lemma inv_get_item s i r it :
  Inv s -> nth_error (getres s) i = Some (r, it) -> existsb (Nat.eqb it) (ready s) = true ->
  Inv (set_ready (set_getres s (remove_nth i (getres s))) (remove_first (Nat.eqb it) (ready s))).
Proof.
  intros (H1 & H2 & H3 & H4) EN ER.
  assert (nth_error (reserved s) i = Some it) as EN'.
  { unfold reserved. rewrite nth_error_map, EN. reflexivity. }
  pose proof (remove_first_len_ex _ _ ER) as LR.
  unfold Inv, used, contents, reserved in *; simpl. rewrite map_remove_nth.
  repeat split.
  - lia.
  - apply NoDup_app_intro.
    + eapply NoDup_app_l; eauto.
    + apply NoDup_remove_first. eapply NoDup_app_r; eauto.
    + intros x Ha Hb. apply remove_first_incl in Hb. eapply NoDup_app_disj; eauto.
  - apply NoDup_remove_nth; auto.
  - intros x Hx. pose proof (remove_nth_not_in _ _ _ H3 EN') as NI.
    apply in_remove_first_neq.
    + apply H4. eapply remove_nth_incl; eauto.
    + intros ->. tauto.
Qed.

Lemma inv_drop_transit s i : Inv s -> Inv (set_transit s (remove_first (Nat.eqb i) (transit s))).
Proof.
  intros (H1 & H2 & H3 & H4). pose proof (remove_first_len (Nat.eqb i) (transit s)).
  unfold Inv, used, contents, reserved in *; simpl. repeat split; auto; [lia|].
  apply NoDup_app_intro.
  - apply NoDup_remove_first. eapply NoDup_app_l; eauto.
  - eapply NoDup_app_r; eauto.
  - intros x Ha Hb. apply remove_first_incl in Ha. eapply NoDup_app_disj; eauto.
Qed.

Lemma inv_ready_item s i :
  Inv s -> existsb (Nat.eqb i) (transit s) = true ->
  Inv (set_ready (set_transit s (remove_first (Nat.eqb i) (transit s))) (ready s ++ [i])).
Proof.
  intros HI E. pose proof (remove_first_len_ex _ _ E) as L.
  destruct (inv_drop_transit s i HI) as (_ & X2 & _). destruct HI as (H1 & H2 & H3 & H4).
  unfold Inv, used, contents, reserved in *; simpl in *. rewrite app_length; simpl.
  repeat split; auto; [lia| |].
  - rewrite app_assoc. apply NoDup_snoc; [exact X2|].
    intros Hi. apply in_app_or in Hi as [Hi|Hi].
    + revert Hi. apply remove_first_eqb_not_in. eapply NoDup_app_l; eauto.
    + apply existsb_eqb_In in E. exact (NoDup_app_disj _ _ _ H2 E Hi).
  - intros x Hx. apply in_or_app. left. auto.
Qed.

Lemma step_inv s o : Inv s -> fresh_op s o -> Inv (step_st s o).
Proof.
  intros HI HF. apply step_lift; [exact trig_put_inv|exact trig_get_keeps_inv|exact HI|].
  intros s1 r k E. destruct E.
  - apply inv_set_next, inv_set_putq, HI.
  - apply inv_set_next, inv_set_getq, HI.
  - apply inv_put_item; assumption.
  - apply inv_drop_putres, HI.
  - eapply inv_get_item; eassumption.
  - apply inv_set_putq, HI.
  - apply inv_drop_putres, HI.
  - apply inv_set_getq, HI.
  - apply inv_drop_getres, HI.
  - apply inv_ready_item; assumption.
  - apply inv_drop_transit, HI.
  - apply inv_set_gate, HI.
  - exact HI.
  - apply inv_set_next, HI.
  - exact HI.
Qed.

Lemma init_inv k m c : Inv (init k m c).
Proof. unfold Inv, used, contents, reserved; simpl. repeat split; try constructor. lia. intros x []. Qed.

(* ------------------------------------------------------------------ every history *)

(* callers put pairwise distinct objects: the list of ids of all Put ops has no duplicates *)
Fixpoint put_ids (ops : list op) : list item :=
  match ops with
  | [] => []
  | Put _ _ i :: r => i :: put_ids r
  | _ :: r => put_ids r
  end.

Lemma step_contents_incl s o x :
  In x (contents (step_st s o)) -> In x (contents s) \/ (exists p t, o = Put p t x).
Proof.
  apply (step_lift (fun s1 => In x (contents s1) -> In x (contents s) \/ (exists p t, o = Put p t x))).
  - intros s1 H. rewrite trig_put_contents. exact H.
  - intros s1 s2 ts E H. rewrite (trig_get_contents _ _ _ E). exact H.
  - auto.
  - intros s1 r k E. destruct E; unfold contents; simpl; auto.
    all: intros Hx; apply in_app_or in Hx as [Hx|Hx]; auto using in_or_app.
    + apply in_app_or in Hx as [Hx|[<-|[]]]; eauto using in_or_app.
    + apply remove_first_incl in Hx. auto using in_or_app.
    + apply remove_first_incl in Hx. auto using in_or_app.
    + apply in_app_or in Hx as [Hx|[<-|[]]]; [auto using in_or_app|].
      left. apply in_or_app. left. apply existsb_eqb_In. assumption.
    + apply remove_first_incl in Hx. auto using in_or_app.
Qed.

Lemma fresh_next s o ops seen :
  incl (contents s) seen -> NoDup (seen ++ put_ids (o :: ops)) ->
  fresh_op s o /\ exists seen', incl (contents (step_st s o)) seen' /\ NoDup (seen' ++ put_ids ops).
Proof.
  intros HS ND. split.
  - destruct o; simpl; auto. intros Hi.
    eapply NoDup_app_disj; [exact ND| apply HS; exact Hi | left; reflexivity].
  - destruct o; simpl in ND;
      try (exists seen; split; [|exact ND]; intros x Hx;
           destruct (step_contents_incl _ _ _ Hx) as [?|(? & ? & ?)]; [auto|discriminate]).
    exists (seen ++ [i]). split.
    + intros x Hx. apply in_or_app. destruct (step_contents_incl _ _ _ Hx) as [?|(? & ? & [= _ _ <-])]; auto.
      right; left; reflexivity.
    + rewrite <- app_assoc. exact ND.
Qed.

Lemma run_inv_gen ops : forall s seen,
  Inv s -> incl (contents s) seen -> NoDup (seen ++ put_ids ops) -> Inv (run s ops).
Proof.
  induction ops as [|o ops IH]; intros s seen HI HS ND; [exact HI|].
  destruct (fresh_next s o ops seen HS ND) as (HF & seen' & HS' & ND').
  apply (IH _ seen'); auto. apply step_inv; auto.
Qed.

Theorem inv_reachable k m c ops : NoDup (put_ids ops) -> Inv (run (init k m c) ops).
Proof.
  intros ND. apply (run_inv_gen ops _ []); auto.
  - apply init_inv.
  - intros x [].
Qed.

(* ------------------------------------------------------------------ C01 consequences *)

Theorem granted_put_ok s p t i :
  Inv s -> ~ In i (contents s) -> existsb (owns p t) (putres s) = true ->
  snd (fst (step s (Put p t i))) = OOk /\ In i (transit (step_st s (Put p t i))) /\
  Inv (step_st s (Put p t i)).
Proof.
  intros HI HF E. pose proof (inv_put_item s _ i HI HF E) as HX.
  destruct HI as (H1 & _). pose proof (remove_first_len_ex _ _ E) as L.
  unfold step_st, used in *. simpl. rewrite E.
  destruct (Nat.ltb_spec (length (transit s) + length (ready s)) (cap s)); [|lia].
  destruct (trig_get_inv _ HX) as (s2 & ts2 & E2 & I2).
  destruct (trig_get_inv _ I2) as (s3 & ts3 & E3 & I3).
  destruct (trig_get_fields _ _ _ E2) as (_ & T2 & _).
  destruct (trig_get_fields _ _ _ E3) as (_ & T3 & _).
  assert (In i (transit s2)) as Hi by (rewrite T2; simpl; apply in_or_app; right; left; reflexivity).
  destruct (s_kind s); rewrite E2; try rewrite E3; simpl; auto.
  rewrite T3. auto.
Qed.

(* ------------------------------------------------------------------ C02: binding and retrieval *)

Lemma owns2_tokb2 p t l : existsb (owns2 p t) l = true -> existsb (tokb2 t) l = true.
Proof.
  intros E. apply existsb_exists in E as (x & Hx & Ho). apply existsb_exists. exists x. split; auto.
  unfold owns2, owns, tokb2, tokb in *. apply andb_prop in Ho. apply Ho.
Qed.

Lemma inv_bound s t i :
  Inv s -> index_where (tokb2 t) (getres s) = Some i ->
  exists r it, nth_error (getres s) i = Some (r, it) /\ In it (ready s).
Proof.
  intros (_ & _ & _ & H4) EI. pose proof (index_where_lt _ _ _ EI) as L.
  destruct (nth_error (getres s) i) as [[r it]|] eqn:EN; [|apply nth_error_None in EN; lia].
  exists r, it. split; auto. apply H4. unfold reserved. apply in_map_iff.
  exists (r, it). split; auto. eapply nth_error_In; eauto.
Qed.

(* a get made with a granted, un-cancelled reservation of one's own returns the bound item *)
Theorem granted_get_ok s p t :
  Inv s -> existsb (owns2 p t) (getres s) = true ->
  exists i r it, index_where (tokb2 t) (getres s) = Some i /\ nth_error (getres s) i = Some (r, it) /\
                 In it (ready s) /\ snd (fst (step s (Get p t))) = OItem it /\
                 ~ In it (contents (step_st s (Get p t))).
Proof.
  intros HI E. destruct (index_where_some _ _ (owns2_tokb2 _ _ _ E)) as [i EI].
  destruct (inv_bound s t i HI EI) as (r & it & EN & Hin). destruct HI as (_ & H2 & _).
  exists i, r, it. unfold step_st. simpl.
  rewrite E, EI, EN, (proj2 (existsb_eqb_In _ _) Hin), let_trig_put. simpl.
  repeat split; auto. rewrite trig_put_contents. unfold contents. simpl.
  intros Hi. apply in_app_or in Hi as [Hi|Hi].
  - eapply NoDup_app_disj; eauto.
  - revert Hi. apply remove_first_eqb_not_in. eapply NoDup_app_r; eauto.
Qed.

(* bindings are never rewritten: a (reservation, item) pair stays until that very token is
   used or cancelled, whatever happens to the other reservations *)
Definition consumes (o : op) (x : req * item) : bool :=
  match o with
  | Get _ t => tokb2 t x
  | CGet t => tokb2 t x
  | _ => false
  end.

Lemma trig_get_getres s s' ts x : trig_get s = Some (s', ts) -> In x (getres s) -> In x (getres s').
Proof.
  intros E H. destruct (trig_get_cases _ _ _ E) as [(_ & -> & _)|(r & q & it & _ & _ & _ & -> & _)]; auto.
  simpl. apply in_or_app; auto.
Qed.

Lemma in_remove_nth_other {A} (f : A -> bool) l i x :
  index_where f l = Some i -> In x l -> f x = false -> In x (remove_nth i l).
Proof.
  revert i; induction l as [|y l IH]; simpl; intros i; [discriminate|].
  destruct (f y) eqn:E.
  - intros [= <-] [->|H] Fx; [congruence|auto].
  - destruct (index_where f l) as [n|]; simpl; [|discriminate]. intros [= <-] [->|H] Fx; simpl; auto.
Qed.

Theorem binding_stable s o x :
  Inv s -> fresh_op s o -> In x (getres s) -> consumes o x = false -> In x (getres (step_st s o)).
Proof.
  intros _ _ Hx HC. apply (step_lift (fun s1 => In x (getres s1))); auto.
  - intros s1 H. destruct (trig_put_fields s1) as (_ & _ & _ & _ & -> & _). exact H.
  - intros s1 s2 ts E H. eapply trig_get_getres; eauto.
  - intros s1 r k E. revert HC. destruct E; simpl; auto; intros HC; eapply in_remove_nth_other; eauto.
Qed.
