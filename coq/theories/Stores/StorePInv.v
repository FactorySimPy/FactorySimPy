(* Invariants of the positional store model, proved for every operation and lifted to every
   history by induction over the op list (no bound on capacity, history length, priorities). *)
From Coq Require Import List ZArith Lia Bool Arith Permutation.
From FV Require Import ListLemmas ListLemmas2 StoreP StorePSteps.
Import ListNotations.

(* ------------------------------------------------------------------ capacity (C01) *)

Definition CapInv (s : store) : Prop :=
  length (putres s) + length (items s) <= cap s /\ length (getres s) <= length (items s).

Lemma trig_get1_items_perm s : Permutation (items (fst (trig_get1 s))) (items s).
Proof.
  destruct (trig_get1_cases s) as [->|(r & q & a & x & b & _ & _ & E & ->)]; simpl; auto.
  apply split_first_perm in E.
  rewrite <- (firstn_skipn (length (getres s)) (items s)) at 2.
  apply Permutation_app_head. symmetry. exact E.
Qed.

Lemma trig_get_items_perm s : Permutation (items (fst (trig_get s))) (items s).
Proof.
  apply (trig_get_lift (fun x => Permutation (items x) (items s))); auto.
  intros x Hx. rewrite trig_get1_items_perm. exact Hx.
Qed.

Lemma trig_get_items_len s : length (items (fst (trig_get s))) = length (items s).
Proof. apply Permutation_length, trig_get_items_perm. Qed.

Lemma trig_put_cap s : CapInv s -> CapInv (fst (trig_put s)).
Proof.
  intros H. destruct (trig_put_cases s) as [(_ & ->)|(r & q & _ & A & ->)]; [exact H|].
  apply Nat.ltb_lt in A. unfold CapInv in *; simpl. rewrite app_length; simpl; lia.
Qed.

Lemma trig_get1_cap s : CapInv s -> CapInv (fst (trig_get1 s)).
Proof.
  intros H. pose proof (Permutation_length (trig_get1_items_perm s)) as L. revert L.
  destruct (trig_get1_cases s) as [->|(r & q & a & x & b & _ & A & _ & ->)]; [intros _; exact H|].
  apply Nat.ltb_lt in A. unfold CapInv in *; simpl. intros ->. rewrite app_length; simpl; lia.
Qed.

Lemma trig_get_cap s : CapInv s -> CapInv (fst (trig_get s)).
Proof. apply trig_get_lift. apply trig_get1_cap. Qed.

Lemma trig_put_fields s :
  let s' := fst (trig_put s) in
  cap s' = cap s /\ items s' = items s /\ getq s' = getq s /\ getres s' = getres s /\
  next s' = next s /\ s_kind s' = s_kind s /\ now s' = now s /\ tdelay s' = tdelay s.
Proof. destruct (trig_put_cases s) as [(_ & ->)|(r & q & _ & _ & ->)]; simpl; repeat split. Qed.

Lemma trig_get1_fields s :
  let s' := fst (trig_get1 s) in
  cap s' = cap s /\ putq s' = putq s /\ putres s' = putres s /\
  next s' = next s /\ s_kind s' = s_kind s /\ now s' = now s /\ tdelay s' = tdelay s.
Proof. destruct (trig_get1_cases s) as [->|(r & q & a & x & b & _ & _ & _ & ->)]; simpl; repeat split. Qed.

Lemma trig_get_fields s :
  let s' := fst (trig_get s) in
  cap s' = cap s /\ putq s' = putq s /\ putres s' = putres s /\
  next s' = next s /\ s_kind s' = s_kind s /\ now s' = now s /\ tdelay s' = tdelay s.
Proof.
  apply (trig_get_lift (fun x => cap x = cap s /\ putq x = putq s /\ putres x = putres s /\
           next x = next s /\ s_kind x = s_kind s /\ now x = now s /\ tdelay x = tdelay s)).
  - intros x (A & B & C & D & E & F & G).
    destruct (trig_get1_fields x) as (A' & B' & C' & D' & E' & F' & G'). repeat split; congruence.
  - repeat split.
Qed.

Lemma trig_put_items s : items (fst (trig_put s)) = items s.
Proof. apply trig_put_fields. Qed.

Lemma trig_items_perm k s : Permutation (items (trig k s)) (items s).
Proof. destruct k as [[|]|]; simpl; [rewrite trig_put_items| apply trig_get_items_perm|]; reflexivity. Qed.

Lemma ins_length r q : length (ins r q) = S (length q).
Proof. induction q as [|x q IH]; simpl; auto. destruct (_ <? _)%Z; simpl; auto. Qed.

Lemma effect_fields s o s1 r k : effect s o s1 r k -> s_kind s1 = s_kind s /\ cap s1 = cap s.
Proof. destruct 1; auto. Qed.

Definition after (d : side) (k : option side) : nat :=
  match d, k with SPut, Some SPut | SGet, Some SGet => 1 | _, _ => 0 end.

(* The books of one operation.  An item enters only in exchange for a granted reservation, and
   a retrieval takes the item and its reservation together, so the bounds hold of the update.
   On each side, the update adds at most one waiting request or frees at most one unit (of room,
   of unbound items), and only when the trigger loop of that side follows. *)
Lemma effect_counts s o s1 r k :
  effect s o s1 r k -> CapInv s ->
  CapInv s1 /\
  length (putq s1) <= after SPut k + length (putq s) /\
  length (putres s) + length (items s) <= after SPut k + (length (putres s1) + length (items s1)) /\
  length (getq s1) <= after SGet k + length (getq s) /\
  length (items s1) + length (getres s) <= after SGet k + (length (items s) + length (getres s1)).
Proof.
  intros E H. pose proof H as (H1 & H2). unfold CapInv.
  destruct E; simpl; auto 7.
  - rewrite ins_length. auto 7.
  - rewrite ins_length. auto 7.
  - apply remove_first_len_ex in OWN. rewrite app_length. simpl. lia.
  - apply remove_first_len_ex in OWN. lia.
  - apply index_where_lt, (remove_nth_len_lt i) in IDX. apply nth_error_lt', (remove_nth_len_lt i) in NTH. lia.
  - pose proof (remove_first_len (tokb t) (putq s)). lia.
  - apply remove_first_len_ex in INR. lia.
  - pose proof (remove_first_len (tokb t) (getq s)). lia.
  - apply index_where_lt, (remove_nth_len_lt i) in IDX. apply nth_error_lt', (remove_nth_len_lt i) in NTH.
    rewrite insert_at_len. lia.
Qed.

Lemma step_cap s o : CapInv s -> CapInv (step_st s o).
Proof.
  intros H. apply step_lift; [exact trig_put_cap|exact trig_get_cap|exact H|].
  intros s1 r k E. apply (effect_counts _ _ _ _ _ E H).
Qed.

Lemma run_inv (P : store -> Prop) :
  (forall s o, P s -> P (step_st s o)) -> forall ops s, P s -> P (run s ops).
Proof.
  intros Hs ops. unfold run. induction ops as [|o ops IH]; simpl; intros s H; auto.
Qed.

Lemma init_cap k c td : CapInv (init k c td).
Proof. unfold CapInv; simpl; lia. Qed.

Theorem cap_inv_reachable k c td ops : CapInv (run (init k c td) ops).
Proof. apply run_inv; [apply step_cap | apply init_cap]. Qed.

(* a put made with a granted, un-cancelled reservation of one's own succeeds *)
Theorem granted_put_ok s p t i :
  CapInv s -> existsb (owns p t) (putres s) = true ->
  snd (fst (step s (Put p t i))) = OOk /\
  In (stamp s i) (items (step_st s (Put p t i))) /\
  CapInv (step_st s (Put p t i)).
Proof.
  intros H E. pose proof (step_cap s (Put p t i) H) as HC. revert HC.
  unfold step_st. simpl. rewrite E.
  pose proof (remove_first_len_ex _ _ E). destruct H as (H1 & H2).
  destruct (Nat.ltb_spec (length (items s)) (cap s)); [|lia].
  rewrite let_trig. simpl. intros HC. split; [reflexivity|]. split; [|exact HC].
  eapply Permutation_in; [symmetry; apply trig_get_items_perm|].
  simpl. apply in_or_app. right. left. reflexivity.
Qed.

(* a get made with a granted, un-cancelled reservation of one's own succeeds and returns the
   item at the reservation's position *)
Theorem granted_get_ok s p t :
  CapInv s -> existsb (owns p t) (getres s) = true ->
  exists i it, index_where (tokb t) (getres s) = Some i /\ nth_error (items s) i = Some it /\
               snd (fst (step s (Get p t))) = OItem it.
Proof.
  intros (H1 & H2) E. simpl. rewrite E.
  assert (E' : existsb (tokb t) (getres s) = true).
  { apply existsb_exists in E as (r & Hr & Ho). apply existsb_exists. exists r. split; auto.
    unfold owns in Ho. apply andb_prop in Ho. apply Ho. }
  destruct (index_where_some _ _ E') as [i EI]. rewrite EI.
  pose proof (index_where_lt _ _ _ EI).
  destruct (nth_error (items s) i) as [it|] eqn:EN.
  - exists i, it. rewrite let_trig. auto.
  - apply nth_error_None in EN. lia.
Qed.

(* ------------------------------------------------------------------ conservation (C02) *)

Definition put_of (s : store) (o : op) (r : out) : list item :=
  match o, r with Put _ _ i, OOk => [stamp s i] | _, _ => [] end.
Definition got_of (r : out) : list item :=
  match r with OItem it => [it] | _ => [] end.

(* one step: what is inside afterwards plus what the step returned is what was inside before
   plus what the step put -- as multisets, with no hypothesis on the items *)
Lemma step_conserve s o :
  let '(s', r, _) := step s o in
  Permutation (items s' ++ got_of r) (items s ++ put_of s o r).
Proof.
  destruct (step_shape s o) as [e|s1 r k ts E].
  { destruct o; reflexivity. }
  rewrite trig_items_perm. destruct E; simpl; rewrite ?app_nil_r; try reflexivity.
  - pose proof (nth_error_lt' _ _ _ NTH) as L.
    rewrite (remove_nth_perm i (items s) it L) at 2. rewrite (nth_error_nth _ _ it NTH).
    symmetry. apply Permutation_cons_append.
  - rewrite insert_at_perm. pose proof (nth_error_lt' _ _ _ NTH) as L.
    rewrite (remove_nth_perm i (items s) it L) at 2. rewrite (nth_error_nth _ _ it NTH). reflexivity.
Qed.

(* all items put / got along a run *)
Fixpoint puts_of (s : store) (ops : list op) : list item :=
  match ops with
  | [] => []
  | o :: ops' => let '(s', r, _) := step s o in put_of s o r ++ puts_of s' ops'
  end.
Fixpoint gots_of (s : store) (ops : list op) : list item :=
  match ops with
  | [] => []
  | o :: ops' => let '(s', r, _) := step s o in got_of r ++ gots_of s' ops'
  end.

Theorem conservation s ops :
  Permutation (items (run s ops) ++ gots_of s ops) (items s ++ puts_of s ops).
Proof.
  revert s. induction ops as [|o ops IH]; intros s; simpl.
  - reflexivity.
  - pose proof (step_conserve s o) as H. unfold run in *. simpl. unfold step_st at 2.
    destruct (step s o) as [[s' r] ts]. simpl.
    transitivity (got_of r ++ (items (fold_left step_st ops s') ++ gots_of s' ops)).
    { rewrite !app_assoc. apply Permutation_app_tail. apply Permutation_app_comm. }
    rewrite IH.
    transitivity ((items s' ++ got_of r) ++ puts_of s' ops).
    { rewrite app_assoc. apply Permutation_app_tail. apply Permutation_app_comm. }
    rewrite H. rewrite app_assoc. reflexivity.
Qed.
