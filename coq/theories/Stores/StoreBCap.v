(* C01: one operation of the bound-item store keeps  granted space reservations + items in transit + ready
   items <= capacity  in EVERY state and for EVERY argument (no side condition on the items put, unlike
   the full invariant StoreBInv.Inv).  This is what lifts to every edge of every factory. *)
From Coq Require Import List ZArith Lia Bool Arith.
From FV Require Import ListLemmas ListLemmas2 StoreB StoreBSteps StoreBInv.
Import ListNotations.

Definition CapOK (s : store) : Prop := used s <= cap s.

Lemma used_eq s s' : cap s' = cap s -> length (putres s') = length (putres s) -> length (transit s') = length (transit s) ->
  length (ready s') = length (ready s) -> CapOK s -> CapOK s'.
Proof. unfold CapOK, used. intros -> -> -> ->. auto. Qed.

Lemma trig_put_cap s : CapOK s -> CapOK (fst (trig_put s)).
Proof.
  intros H. destruct (trig_put_cases s) as [(_ & ->)|(r & q & _ & A & ->)]; [exact H|].
  apply andb_prop in A as (A & _). apply Nat.ltb_lt in A.
  unfold CapOK, used in *. simpl. rewrite app_length. simpl. lia.
Qed.

Lemma trig_get_cap s s' ts : trig_get s = Some (s', ts) -> CapOK s -> CapOK s'.
Proof.
  intros E H. destruct (trig_get_fields _ _ _ E) as (A & B & C & _ & D & _).
  unfold CapOK, used in *. rewrite A, B, C, D. exact H.
Qed.

Lemma remove_first_len_le {A} (f : A -> bool) l : length (remove_first f l) <= length l.
Proof. apply remove_first_len. Qed.

(* an item enters only in exchange for a granted reservation, and moves from transit to ready *)
Lemma effect_cap s o s1 r k : effect s o s1 r k -> CapOK s -> CapOK s1.
Proof.
  intros E H. unfold CapOK, used in *. destruct E; simpl; try exact H.
  - apply remove_first_len_ex in OWN. rewrite app_length. simpl. lia.
  - pose proof (remove_first_len (owns p t) (putres s)). lia.
  - pose proof (remove_first_len (Nat.eqb it) (ready s)). lia.
  - pose proof (remove_first_len (tokb t) (putres s)). lia.
  - apply remove_first_len_ex in INT. rewrite app_length. simpl. lia.
  - pose proof (remove_first_len (Nat.eqb i) (transit s)). lia.
Qed.

Theorem cap_step s o : CapOK s -> CapOK (step_st s o).
Proof.
  intros H. apply step_lift; [exact trig_put_cap|exact trig_get_cap|exact H|].
  intros s1 r k E. exact (effect_cap _ _ _ _ _ E H).
Qed.

Lemma init_cap k m c : CapOK (init k m c).
Proof. unfold CapOK, used, init. simpl. lia. Qed.
