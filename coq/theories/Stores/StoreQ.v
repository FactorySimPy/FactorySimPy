(* Model of PriorityReqStore (base/priority_req_store.py): a SimPy Store whose put / get request
   queues are kept sorted by key (priority, request time) with a stable sort.  Requests arrive in
   time order, so sorting stably by (priority, time) is sorting stably by priority; the token
   number is the arrival number.
   SimPy BaseResource semantics: issuing a request appends it to its queue and runs the trigger
   loop of its own side once; when the kernel later *processes* a granted put (get) request, the
   trigger loop of the get (put) side runs.  Store._do_put / _do_get return None, so a trigger
   loop tries exactly the head.  Model only; proofs below the line. *)
From Coq Require Import List ZArith Lia Bool Arith Sorted.
From FV Require Import ListLemmas ListLemmas2 Queue.
Import ListNotations.

Record qreq := { q_tok : nat; q_prio : Z; q_item : nat }.
Record qstore := { qcap : nat; qnext : nat; qitems : list nat; qputq : list qreq; qgetq : list qreq }.

Inductive qop :=
| QPut (pr : Z) (i : nat)      (* store.put(item, priority) *)
| QGet (pr : Z)                (* store.get(priority) *)
| QProcPut                     (* the kernel processes a granted put request: _trigger_get *)
| QProcGet                     (* the kernel processes a granted get request: _trigger_put *)
| QCancelPut (t : nat) | QCancelGet (t : nat).     (* request.cancel() of a waiting request *)

(* what one op grants: put tokens / (get token, item) *)
Inductive qgrant := GPut (t : nat) | GGet (t : nat) (i : nat).

Definition qtrig_put (s : qstore) : qstore * list qgrant :=
  match qputq s with
  | r :: q => if length (qitems s) <? qcap s
              then ({| qcap := qcap s; qnext := qnext s; qitems := qitems s ++ [q_item r]; qputq := q; qgetq := qgetq s |},
                    [GPut (q_tok r)])
              else (s, [])
  | [] => (s, [])
  end.

Definition qtrig_get (s : qstore) : qstore * list qgrant :=
  match qgetq s, qitems s with
  | r :: q, i :: its => ({| qcap := qcap s; qnext := qnext s; qitems := its; qputq := qputq s; qgetq := q |},
                         [GGet (q_tok r) i])
  | _, _ => (s, [])
  end.

Definition qtokb (t : nat) (r : qreq) : bool := Nat.eqb (q_tok r) t.

Definition qstep (s : qstore) (o : qop) : qstore * list qgrant :=
  match o with
  | QPut pr i =>
      let r := {| q_tok := qnext s; q_prio := pr; q_item := i |} in
      qtrig_put {| qcap := qcap s; qnext := S (qnext s); qitems := qitems s; qputq := gins q_prio r (qputq s); qgetq := qgetq s |}
  | QGet pr =>
      let r := {| q_tok := qnext s; q_prio := pr; q_item := 0 |} in
      qtrig_get {| qcap := qcap s; qnext := S (qnext s); qitems := qitems s; qputq := qputq s; qgetq := gins q_prio r (qgetq s) |}
  | QProcPut => qtrig_get s
  | QProcGet => qtrig_put s
  | QCancelPut t => ({| qcap := qcap s; qnext := qnext s; qitems := qitems s;
                        qputq := remove_first (qtokb t) (qputq s); qgetq := qgetq s |}, [])
  | QCancelGet t => ({| qcap := qcap s; qnext := qnext s; qitems := qitems s;
                        qputq := qputq s; qgetq := remove_first (qtokb t) (qgetq s) |}, [])
  end.

Definition qinit (c : nat) : qstore := {| qcap := c; qnext := 0; qitems := []; qputq := []; qgetq := [] |}.
Definition qrun (s : qstore) (ops : list qop) : qstore := fold_left (fun s o => fst (qstep s o)) ops s.
Fixpoint qrun_trace (s : qstore) (ops : list qop) : list (list qgrant * qstore) :=
  match ops with [] => [] | o :: r => let '(s', g) := qstep s o in (g, s') :: qrun_trace s' r end.

(* ------------------------------------------------------------------ proofs *)

Notation qqs := (qsorted q_prio q_tok).
Notation qbel := (below q_tok).
Notation qlt := (klt q_prio q_tok).
Notation qqk := (qok q_prio q_tok).

Definition QQInv (s : qstore) : Prop :=
  qqs (qputq s) /\ qqs (qgetq s) /\ qbel (qnext s) (qputq s) /\ qbel (qnext s) (qgetq s) /\
  length (qitems s) <= qcap s.

Lemma qqinv_qok s :
  QQInv s <-> qqk (qnext s) (qputq s) /\ qqk (qnext s) (qgetq s) /\ length (qitems s) <= qcap s.
Proof. unfold QQInv, qok. tauto. Qed.

Lemma qtrig_put_inv s : QQInv s -> QQInv (fst (qtrig_put s)).
Proof.
  intros HI. unfold qtrig_put. destruct (qputq s) as [|r q] eqn:EQ; [exact HI|].
  destruct (Nat.ltb_spec (length (qitems s)) (qcap s)); [|exact HI].
  apply qqinv_qok in HI as (P & G & C). apply qqinv_qok. simpl. rewrite EQ in P.
  split; [exact (qok_tail _ _ _ _ _ P)|]. split; [exact G|]. rewrite app_length. simpl. lia.
Qed.

Lemma qtrig_get_inv s : QQInv s -> QQInv (fst (qtrig_get s)).
Proof.
  intros HI. unfold qtrig_get. destruct (qgetq s) as [|r q] eqn:EQ; [exact HI|].
  destruct (qitems s) as [|i its] eqn:EI; [exact HI|].
  apply qqinv_qok in HI as (P & G & C). apply qqinv_qok. simpl. rewrite EQ in G. rewrite EI in C.
  split; [exact P|]. split; [exact (qok_tail _ _ _ _ _ G)|]. simpl in C. lia.
Qed.

(* a new request takes the next token and is inserted behind the requests of its priority *)
Lemma qinv_enq_put s pr i :
  QQInv s ->
  QQInv {| qcap := qcap s; qnext := S (qnext s); qitems := qitems s;
           qputq := gins q_prio {| q_tok := qnext s; q_prio := pr; q_item := i |} (qputq s); qgetq := qgetq s |}.
Proof.
  intros HI. apply qqinv_qok in HI as (P & G & C). apply qqinv_qok. simpl.
  split; [apply qok_gins; [reflexivity|exact P]|]. split; [apply (qok_mono _ _ (qnext s)); auto|exact C].
Qed.

Lemma qinv_enq_get s pr :
  QQInv s ->
  QQInv {| qcap := qcap s; qnext := S (qnext s); qitems := qitems s; qputq := qputq s;
           qgetq := gins q_prio {| q_tok := qnext s; q_prio := pr; q_item := 0 |} (qgetq s) |}.
Proof.
  intros HI. apply qqinv_qok in HI as (P & G & C). apply qqinv_qok. simpl.
  split; [apply (qok_mono _ _ (qnext s)); auto|]. split; [apply qok_gins; [reflexivity|exact G]|exact C].
Qed.

Lemma qstep_inv s o : QQInv s -> QQInv (fst (qstep s o)).
Proof.
  intros HI. destruct o; simpl.
  - apply qtrig_put_inv, qinv_enq_put, HI.
  - apply qtrig_get_inv, qinv_enq_get, HI.
  - apply qtrig_get_inv, HI.
  - apply qtrig_put_inv, HI.
  - apply qqinv_qok in HI as (P & G & C). apply qqinv_qok. simpl. auto using qok_remove_first.
  - apply qqinv_qok in HI as (P & G & C). apply qqinv_qok. simpl. auto using qok_remove_first.
Qed.

Theorem qinv_reachable c ops : QQInv (qrun (qinit c) ops).
Proof.
  assert (QQInv (qinit c)) as H0.
  { apply qqinv_qok. simpl. split; [apply qok_nil|]. split; [apply qok_nil|apply Nat.le_0_l]. }
  unfold qrun. revert H0. generalize (qinit c). induction ops as [|o ops IH]; simpl; intros s H; auto.
  apply IH, qstep_inv, H.
Qed.

(* what a trigger loop may grant, [s'] being the state it leaves: nothing, or the one request
   that precedes all those still waiting on its side *)
Definition min_grant (s' : qstore) (g : list qgrant) : Prop :=
  match g with
  | [] => True
  | [GPut t] => exists r, q_tok r = t /\ forall y, In y (qputq s') -> qlt r y
  | [GGet t i] => exists r, q_tok r = t /\ forall y, In y (qgetq s') -> qlt r y
  | _ => False
  end.

Lemma qtrig_put_min s s' g : QQInv s -> qtrig_put s = (s', g) -> min_grant s' g.
Proof.
  unfold QQInv, qtrig_put. destruct (qputq s) as [|r q]; intros (A & _); [intros [= <- <-]; exact I|].
  destruct (_ <? _); intros [= <- <-]; [|exact I].
  exists r. split; [reflexivity|]. intros y. apply sorted_head_min, A.
Qed.

Lemma qtrig_get_min s s' g : QQInv s -> qtrig_get s = (s', g) -> min_grant s' g.
Proof.
  unfold QQInv, qtrig_get. destruct (qgetq s) as [|r q]; intros (_ & B & _); [intros [= <- <-]; exact I|].
  destruct (qitems s); intros [= <- <-]; [exact I|].
  exists r. split; [reflexivity|]. intros y. apply sorted_head_min, B.
Qed.

(* every grant serves the head of its queue, which precedes all other waiting requests of that
   side in (priority, arrival) order; nothing else is granted *)
Theorem qgrant_is_min s o s' g :
  QQInv s -> qstep s o = (s', g) ->
  match g with
  | [] => True
  | [GPut t] => exists r, q_tok r = t /\ forall y, In y (qputq s') -> qlt r y
  | [GGet t i] => exists r, q_tok r = t /\ forall y, In y (qgetq s') -> qlt r y
  | _ => False
  end.
Proof.
  intros HI E. destruct o; simpl in E.
  - exact (qtrig_put_min _ _ _ (qinv_enq_put s pr i HI) E).
  - exact (qtrig_get_min _ _ _ (qinv_enq_get s pr HI) E).
  - exact (qtrig_get_min _ _ _ HI E).
  - exact (qtrig_put_min _ _ _ HI E).
  - injection E as <- <-. exact I.
  - injection E as <- <-. exact I.
Qed.

(* items leave in the order in which their put requests were granted (plain FIFO store) *)
Theorem qget_takes_oldest s s' t i :
  qtrig_get s = (s', [GGet t i]) -> exists its, qitems s = i :: its /\ qitems s' = its.
Proof.
  unfold qtrig_get. destruct (qgetq s); [intros [= <-]|]. destruct (qitems s) as [|x its]; intros [= <- <- <-].
  exists its. auto.
Qed.
