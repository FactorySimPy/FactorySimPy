(* Tokens of retrieval requests (waiting or granted) of the bound-item store: the mirror image of StoreBTok.v.
   Pairwise distinct and below the token counter -- an invariant every store operation keeps unconditionally;
   a cancellation the store accepts removes the token for good, and no operation other than the request that
   creates it ever brings a token (back) in.  Used by FactoryWithdraw.v for the retrieval side of C10. *)
From Coq Require Import List ZArith Lia Bool Arith Permutation.
From FV Require Import ListLemmas ListLemmas2.
From FV Require Import StoreB StoreBSteps StoreBInv StoreBProps StoreBTok.
Import ListNotations.

Definition g2 (x : req * item) : tok := r_tok (fst x).
Definition gtl (s : store) : list tok := map r_tok (getq s) ++ map g2 (getres s).
Definition GT (s : store) (t : tok) : Prop := In t (gtl s).
Definition TokG (s : store) : Prop := NoDup (gtl s) /\ (forall t, GT s t -> t < next s).

Definition get_op (o : op) : bool := match o with RGet _ _ => true | _ => false end.

Lemma trig_put_gtl s : Permutation (gtl (fst (trig_put s))) (gtl s).
Proof. destruct (trig_put_fields s) as (_ & _ & _ & A & B & _). unfold gtl. rewrite A, B. reflexivity. Qed.
Lemma trig_get_gtl s s' ts : trig_get s = Some (s', ts) -> Permutation (gtl s') (gtl s).
Proof.
  intros E. destruct (trig_get_cases _ _ _ E) as [(_ & -> & _)|(r & q & it & EQ & _ & _ & -> & _)]; [reflexivity|].
  unfold gtl. rewrite EQ. simpl.
  rewrite map_app. simpl. rewrite app_assoc. rewrite <- Permutation_cons_append. apply Permutation_refl.
Qed.

Lemma remove_first2_sub f (l : list (req * item)) : sub (map g2 (remove_first f l)) (map g2 l).
Proof. apply remove_first_sub. Qed.

Lemma remove_nth_sub {A} (g : A -> tok) i l : sub (map g (remove_nth i l)) (map g l).
Proof.
  revert i; induction l as [|x l IH]; intros i; simpl; [destruct i; apply sub_refl|]. destruct i as [|i].
  - simpl. apply sub_cons.
  - simpl. destruct (IH i) as (r & R). exists r. simpl. constructor. exact R.
Qed.
Lemma sub_of_perm l l' : Permutation l l' -> sub l l'.
Proof. intros P. eapply sub_perm; [exact P|apply sub_refl]. Qed.
Lemma sub_of_eq (l l' : list tok) : l = l' -> sub l l'.
Proof. intros ->. apply sub_refl. Qed.

Lemma effect_gtl s o s1 r k : effect s o s1 r k -> sub (gtl s1) (issued get_op s o ++ gtl s).
Proof.
  intros E. destruct E; unfold gtl; simpl; try apply sub_refl.
  - eapply sub_perm; [apply Permutation_app_tail, ins_toks|]. apply sub_refl.
  - apply sub_app_r, remove_nth_sub.
  - apply sub_app_l, remove_first_sub.
  - apply sub_app_r, remove_nth_sub.
Qed.

Lemma get_op_next s o s1 r k : effect s o s1 r k -> get_op o = true -> next s < next s1.
Proof. intros E. destruct E; simpl; intros; try discriminate; lia. Qed.

Lemma gt_origin s o t : GT (step_st s o) t -> GT s t \/ In t (issued get_op s o).
Proof. exact (toks_origin gtl get_op trig_put_gtl trig_get_gtl effect_gtl s o t). Qed.

Theorem tokg_step s o : TokG s -> TokG (step_st s o).
Proof. exact (toks_step gtl get_op trig_put_gtl trig_get_gtl effect_gtl get_op_next s o). Qed.
Lemma init_tokg k m c : TokG (init k m c).
Proof. split; [constructor|]. intros t H. inversion H. Qed.

Lemma existsb_tokb2_false t l : index_where (tokb2 t) l = None -> ~ In t (map g2 l).
Proof.
  intros H K. apply in_map_iff in K. destruct K as (x & <- & Hx).
  assert (existsb (tokb2 (g2 x)) l = true) as E by (apply existsb_exists; exists x; split; auto; unfold tokb2, tokb, g2; apply Nat.eqb_refl).
  revert H E. clear. induction l as [|y l IH]; simpl; [discriminate|].
  destruct (tokb2 (g2 x) y); [discriminate|]. simpl. destruct (index_where _ l); [discriminate|]. intros _. apply IH. reflexivity.
Qed.

(* a cancellation of a retrieval request that the store accepts removes its token *)
Theorem cget_absent s t s' ts : TokG s -> step s (CGet t) = (s', OOk, ts) -> ~ GT s' t.
Proof.
  intros (ND & _). cbn [step].
  apply NoDup_app_parts in ND as (N1 & N2 & N3).
  destruct (existsb (tokb t) (getq s)) eqn:E1.
  - unfold after_get. destruct (trig_get _) as [[s2 ts2]|] eqn:E; [|discriminate]. intros [= <- <-].
    apply trig_get_gtl in E. intros H. apply (Permutation_in _ E) in H. unfold gtl in H. cbn in H.
    apply in_app_or in H. destruct H as [H|H].
    + exact (remove_tok_absent t (getq s) N1 H).
    + apply existsb_exists in E1. destruct E1 as (x & Hx & Ex). unfold tokb in Ex. apply Nat.eqb_eq in Ex.
      eapply N3; [|exact H]. subst t. apply in_map. exact Hx.
  - destruct (index_where (tokb2 t) (getres s)) as [i|] eqn:EI; [|discriminate].
    destruct (nth_error (getres s) i) as [[r it]|] eqn:EN; [|discriminate].
    destruct (existsb (Nat.eqb it) (ready s)); [|discriminate].
    unfold after_get. destruct (trig_get _) as [[s2 ts2]|] eqn:E; [|discriminate]. intros [= <- <-].
    apply trig_get_gtl in E. intros H. apply (Permutation_in _ E) in H. unfold gtl in H. cbn in H.
    apply in_app_or in H. destruct H as [H|H].
    + exact (existsb_tokb_false t (getq s) E1 H).
    + rewrite map_remove_nth in H. revert H. apply remove_nth_not_in; [exact N2|].
      rewrite nth_error_map, EN. cbn. f_equal.
      pose proof (index_where_nth (tokb2 t) (getres s) i (r, it) EI) as K.
      rewrite (nth_error_nth _ _ _ EN) in K. unfold tokb2, tokb in K. cbn in K. apply Nat.eqb_eq in K. exact K.
Qed.

(* nothing but a retrieval request brings a token in: in particular a refused cancellation of an unknown token *)
Lemma gt_not_back s o t : (forall p pr, o <> RGet p pr) -> ~ GT s t -> ~ GT (step_st s o) t.
Proof.
  intros NR NG H. destruct (gt_origin s o t H) as [K|K]; [exact (NG K)|].
  destruct o; simpl in K; try contradiction. eapply NR; reflexivity.
Qed.
