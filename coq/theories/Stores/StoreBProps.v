(* Further theorems about the bound-item store model: conservation (C02), no lost wake-up (C04). *)
From Coq Require Import List ZArith Lia Bool Arith Permutation Sorted.
From FV Require Import ListLemmas ListLemmas2 Queue StoreB StoreBSteps StoreBInv.
Import ListNotations.

(* ------------------------------------------------------------------ C02: conservation *)

Definition put_of (o : op) (r : out) : list item :=
  match o, r with Put _ _ i, OOk => [i] | _, _ => [] end.
Definition got_of (r : out) : list item :=
  match r with OItem it => [it] | _ => [] end.

Lemma ready_guard_ok s i :
  used s <= cap s -> existsb (Nat.eqb i) (transit s) = true ->
  ready_guard s (remove_first (Nat.eqb i) (transit s)) = true.
Proof.
  intros H1 Hi. pose proof (remove_first_len_ex _ _ Hi) as L. unfold ready_guard, used in *.
  destruct (s_kind s); apply Nat.ltb_lt; lia.
Qed.

(* one step: inside afterwards + returned = inside before + put, as multisets *)
Lemma step_conserve s o :
  Inv s -> fresh_op s o ->
  let '(s', r, _) := step s o in
  Permutation (contents s' ++ got_of r) (contents s ++ put_of o r).
Proof.
  intros (H1 & _) _. destruct (step_shape s o) as [e|s1 r k s' ts E T].
  { destruct o; reflexivity. }
  rewrite (trigs_contents _ _ _ T).
  destruct E; unfold contents; simpl; rewrite ?app_nil_r; try reflexivity.
  - rewrite <- !app_assoc. apply Permutation_app_head, Permutation_app_comm.
  - apply existsb_eqb_In in RDY. rewrite <- app_assoc. apply Permutation_app_head.
    rewrite (remove_first_eqb_perm _ _ RDY) at 2. symmetry. apply Permutation_cons_append.
  - apply existsb_eqb_In in INT. rewrite (remove_first_eqb_perm _ _ INT) at 2. simpl.
    rewrite app_assoc. rewrite <- Permutation_cons_append. reflexivity.
  - rewrite ready_guard_ok in GUARD by assumption. discriminate.
Qed.

Fixpoint puts_of (s : store) (ops : list op) : list item :=
  match ops with
  | [] => []
  | o :: ops' => let '(s', r, _) := step s o in put_of o r ++ puts_of s' ops'
  end.
Fixpoint gots_of (s : store) (ops : list op) : list item :=
  match ops with
  | [] => []
  | o :: ops' => let '(s', r, _) := step s o in got_of r ++ gots_of s' ops'
  end.

Lemma conservation_gen ops : forall s seen,
  Inv s -> incl (contents s) seen -> NoDup (seen ++ put_ids ops) ->
  Permutation (contents (run s ops) ++ gots_of s ops) (contents s ++ puts_of s ops).
Proof.
  induction ops as [|o ops IH]; intros s seen HI HS ND; simpl.
  - reflexivity.
  - destruct (fresh_next s o ops seen HS ND) as (HF & seen' & HS' & ND').
    pose proof (step_conserve s o HI HF) as HC.
    specialize (IH _ _ (step_inv s o HI HF) HS' ND').
    unfold run in *. simpl. unfold step_st in *.
    destruct (step s o) as [[s' r] ts]. simpl in *.
    transitivity (got_of r ++ (contents (fold_left (fun s0 o0 => fst (fst (step s0 o0))) ops s') ++ gots_of s' ops)).
    { rewrite !app_assoc. apply Permutation_app_tail. apply Permutation_app_comm. }
    rewrite IH.
    transitivity ((contents s' ++ got_of r) ++ puts_of s' ops).
    { rewrite app_assoc. apply Permutation_app_tail. apply Permutation_app_comm. }
    rewrite HC. rewrite app_assoc. reflexivity.
Qed.

Theorem conservation k m c ops :
  NoDup (put_ids ops) ->
  Permutation (contents (run (init k m c) ops) ++ gots_of (init k m c) ops) (puts_of (init k m c) ops).
Proof.
  intros ND. apply (conservation_gen ops (init k m c) []); auto.
  - apply init_inv.
  - intros x [].
Qed.

(* ------------------------------------------------------------------ C04: no lost wake-up *)

Definition NoLost (s : store) : Prop :=
  (putq s <> [] -> allow_put s = false) /\ (getq s <> [] -> allow_get s = false).

Lemma allow_put_nobelt s : is_belt (s_kind s) = false -> allow_put s = (used s <? cap s).
Proof. unfold allow_put. destruct (s_kind s); simpl; try discriminate; intros _; apply andb_true_r. Qed.

Lemma ins_length r q : length (ins r q) = S (length q).
Proof. induction q as [|x q IH]; simpl; auto. destruct (_ <? _)%Z; simpl; auto. Qed.

Lemma ins_nonnil r q : ins r q <> [].
Proof. destruct q; simpl; [congruence|]. destruct (_ <? _)%Z; congruence. Qed.

Lemma ins_two r x q : exists a b c, ins r (x :: q) = a :: b :: c.
Proof.
  simpl. destruct (_ <? _)%Z; [eauto|]. destruct q; simpl; [eauto|]. destruct (_ <? _)%Z; eauto.
Qed.

(* How far each side is from "nothing servable is waiting": all but [n] of the waiting requests
   would find the store full (resp. every ready item bound) even with [n] more units free.
   Slack 0 on both sides is [NoLost]; a pass of a side's own trigger takes one unit of slack
   off it and does not look at the other side. *)
Definition put_slack (n : nat) (s : store) : Prop := length (putq s) <= n \/ cap s <= used s + n.
Definition get_slack (n : nat) (s : store) : Prop :=
  length (getq s) <= n \/ length (ready s) <= length (getres s) + n.

Lemma nolost_slack s :
  is_belt (s_kind s) = false -> NoLost s <-> put_slack 0 s /\ get_slack 0 s.
Proof.
  intros NB. unfold NoLost, allow_get. rewrite (allow_put_nobelt s NB), !waiting_slack. reflexivity.
Qed.

Lemma trig_put_slack s n :
  is_belt (s_kind s) = false -> put_slack (S n) s -> put_slack n (fst (trig_put s)).
Proof.
  intros NB H. unfold put_slack in *.
  destruct (trig_put_cases s) as [([Q|A] & ->)|(r & q & Q & _ & ->)]; simpl.
  - left. rewrite Q. simpl. lia.
  - right. rewrite (allow_put_nobelt s NB) in A. apply Nat.ltb_ge in A. lia.
  - rewrite Q in H. unfold used in *. simpl in *. rewrite app_length. simpl. lia.
Qed.

Lemma trig_get_slack s s' ts n :
  trig_get s = Some (s', ts) -> get_slack (S n) s -> get_slack n s'.
Proof.
  intros E H. unfold get_slack in *.
  destruct (trig_get_cases _ _ _ E) as [([Q|A] & -> & _)|(r & q & it & Q & _ & _ & -> & _)]; simpl.
  - left. rewrite Q. simpl. lia.
  - right. apply Nat.ltb_ge in A. lia.
  - rewrite Q in H. simpl in *. rewrite app_length. simpl. lia.
Qed.

Lemma trig_put_get_slack s n : get_slack n s -> get_slack n (fst (trig_put s)).
Proof. unfold get_slack. destruct (trig_put_fields s) as (_ & _ & -> & -> & -> & _). auto. Qed.

Lemma trig_get_put_slack s s' ts n : trig_get s = Some (s', ts) -> put_slack n s -> put_slack n s'.
Proof.
  intros E. unfold put_slack, used.
  destruct (trig_get_fields _ _ _ E) as (-> & -> & -> & -> & -> & _). auto.
Qed.

Lemma trig_put_kind s : s_kind (fst (trig_put s)) = s_kind s.
Proof. apply trig_put_fields. Qed.
Lemma trig_get_kind s s' ts : trig_get s = Some (s', ts) -> s_kind s' = s_kind s.
Proof. intros E. apply trig_get_fields in E. apply E. Qed.

Fixpoint nput (k : list side) : nat :=
  match k with [] => 0 | SPut :: k' => S (nput k') | SGet :: k' => nput k' end.
Fixpoint nget (k : list side) : nat :=
  match k with [] => 0 | SGet :: k' => S (nget k') | SPut :: k' => nget k' end.

Lemma trigs_nolost k s s' :
  trigs k s s' -> is_belt (s_kind s) = false ->
  put_slack (nput k) s -> get_slack (nget k) s -> NoLost s'.
Proof.
  intros T. induction T as [s|k s s' T IH|k s s1 ts s' E T IH]; simpl; intros NB HP HG.
  - apply nolost_slack; auto.
  - apply IH; [rewrite trig_put_kind; exact NB|apply trig_put_slack; auto|apply trig_put_get_slack; exact HG].
  - apply IH; [rewrite (trig_get_kind _ _ _ E); exact NB|eapply trig_get_put_slack; eauto|eapply trig_get_slack; eauto].
Qed.

Lemma effect_fields s o s1 r k : effect s o s1 r k -> s_kind s1 = s_kind s /\ cap s1 = cap s.
Proof. destruct 1; auto. Qed.

(* The books of one operation.  On each side, the update adds at most as many waiting requests,
   and frees at most as many units (of room, of unbound ready items), as passes of that side's
   trigger follow.  An item whose travel ends is never refused while the capacity bound holds. *)
Lemma effect_counts s o s1 r k :
  effect s o s1 r k -> used s <= cap s ->
  length (putq s1) <= nput k + length (putq s) /\ used s <= nput k + used s1 /\
  length (getq s1) <= nget k + length (getq s) /\
  length (ready s1) + length (getres s) <= nget k + (length (ready s) + length (getres s1)).
Proof.
  intros E HC. unfold used in *. destruct E; simpl; auto 6.
  - rewrite ins_length. auto 6.
  - rewrite ins_length. auto 6.
  - apply remove_first_len_ex in OWN. rewrite app_length. destruct (s_kind s); simpl; lia.
  - lia.
  - apply remove_first_len_ex in RDY. apply nth_error_lt', (remove_nth_len_lt i) in NTH. lia.
  - pose proof (remove_first_len (tokb t) (putq s)). lia.
  - apply remove_first_len_ex in INR. lia.
  - pose proof (remove_first_len (tokb t) (getq s)). lia.
  - apply nth_error_lt', (remove_nth_len_lt i) in NTH. lia.
  - apply remove_first_len_ex in INT. rewrite !app_length. simpl. lia.
  - rewrite ready_guard_ok in GUARD by assumption. discriminate.
Qed.

Theorem step_nolost_cap s o :
  is_belt (s_kind s) = false -> used s <= cap s -> NoLost s -> NoLost (step_st s o).
Proof.
  intros NB HC NL. unfold step_st.
  destruct (step_shape s o) as [e|s1 r k s' ts E T]; [exact NL|]. simpl.
  destruct (effect_counts _ _ _ _ _ E HC) as (P1 & P2 & G1 & G2).
  destruct (effect_fields _ _ _ _ _ E) as (EK & EC).
  apply nolost_slack in NL as (SP & SG); [|exact NB].
  apply (trigs_nolost _ _ _ T); [rewrite EK; exact NB| |]; unfold put_slack, get_slack in *; lia.
Qed.

Theorem step_nolost s o :
  is_belt (s_kind s) = false -> Inv s -> fresh_op s o -> NoLost s -> NoLost (step_st s o).
Proof. intros NB (HC & _) _. apply step_nolost_cap; assumption. Qed.

Lemma step_kind s o : s_kind (step_st s o) = s_kind s.
Proof.
  apply (step_lift (fun s1 => s_kind s1 = s_kind s)); auto.
  - intros s1 H. rewrite trig_put_kind. exact H.
  - intros s1 s2 ts E H. rewrite (trig_get_kind _ _ _ E). exact H.
  - intros s1 r k E. apply (effect_fields _ _ _ _ _ E).
Qed.

Lemma init_nolost k m c : NoLost (init k m c).
Proof. split; simpl; congruence. Qed.

Lemma run_nolost_gen ops : forall s seen,
  is_belt (s_kind s) = false -> Inv s -> NoLost s -> incl (contents s) seen -> NoDup (seen ++ put_ids ops) ->
  NoLost (run s ops).
Proof.
  induction ops as [|o ops IH]; intros s seen NB HI NL HS ND; [exact NL|].
  destruct (fresh_next s o ops seen HS ND) as (HF & seen' & HS' & ND').
  apply (IH _ seen'); auto.
  - rewrite step_kind. exact NB.
  - apply step_inv; auto.
  - apply step_nolost; auto.
Qed.

Theorem nolost_reachable k m c ops :
  is_belt k = false -> NoDup (put_ids ops) -> NoLost (run (init k m c) ops).
Proof.
  intros NB ND. apply (run_nolost_gen ops _ []); auto.
  - apply init_inv.
  - apply init_nolost.
  - intros x [].
Qed.
