(* Tokens of space requests (waiting or granted) of the bound-item store: pairwise distinct, all below
   the token counter -- an invariant every store operation keeps unconditionally; cancelling a space
   request removes its token for good, and no operation other than the request that creates it ever
   brings a token (back) in.  Used by FactoryWithdraw.v for C10 ("a node that commits to one edge
   withdraws its requests on all the others").
   The argument is the same for the retrieval requests (StoreBTokG.v), so it is made once, for a
   token list [tl] of either side (section OneSide). *)
From Coq Require Import List ZArith Lia Bool Arith Permutation.
From FV Require Import ListLemmas ListLemmas2.
From FV Require Import StoreB StoreBSteps StoreBInv StoreBProps.
Import ListNotations.

Definition ptl (s : store) : list tok := map r_tok (putq s) ++ map r_tok (putres s).
Definition PT (s : store) (t : tok) : Prop := In t (ptl s).
Definition TokB (s : store) : Prop := NoDup (ptl s) /\ (forall t, PT s t -> t < next s).

Lemma ins_toks r q : Permutation (map r_tok (ins r q)) (r_tok r :: map r_tok q).
Proof.
  induction q as [|x q IH]; simpl; auto. destruct (_ <? _)%Z; simpl; auto.
  rewrite IH. apply perm_swap.
Qed.

Lemma map_remove_first_in {A B} (g : A -> B) f l x : In x (map g (remove_first f l)) -> In x (map g l).
Proof. intros H. apply in_map_iff in H. destruct H as (y & <- & Hy). apply in_map. eapply remove_first_incl; eauto. Qed.
Lemma map_remove_first_nodup {A B} (g : A -> B) f l : NoDup (map g l) -> NoDup (map g (remove_first f l)).
Proof.
  induction l as [|x l IH]; simpl; auto. intros H. inversion H; subst. destruct (f x); auto.
  simpl. constructor; auto. intros K. apply H2. eapply map_remove_first_in; eauto.
Qed.
Lemma remove_tok_absent t l : NoDup (map r_tok l) -> ~ In t (map r_tok (remove_first (tokb t) l)).
Proof.
  induction l as [|x l IH]; simpl; auto. intros H. inversion H; subst. unfold tokb at 1.
  destruct (Nat.eqb_spec (r_tok x) t) as [E|E].
  - subst t. exact H2.
  - simpl. intros [K|K]; [contradiction|]. eapply IH; eauto.
Qed.
Lemma existsb_tokb_false t l : existsb (tokb t) l = false -> ~ In t (map r_tok l).
Proof.
  induction l as [|x l IH]; simpl; auto. intros H. apply orb_false_iff in H. destruct H as (H1 & H2).
  unfold tokb in H1. apply Nat.eqb_neq in H1. intros [K|K]; [contradiction|]. apply IH; auto.
Qed.

(* [sub l l']: as a multiset, [l] is contained in [l'] *)
Definition sub (l l' : list tok) : Prop := exists r, Permutation (l ++ r) l'.
Lemma sub_refl l : sub l l. Proof. exists []. rewrite app_nil_r. apply Permutation_refl. Qed.
Lemma sub_perm l l' l'' : Permutation l l' -> sub l' l'' -> sub l l''.
Proof. intros P (r & R). exists r. rewrite P. exact R. Qed.
Lemma sub_nodup l l' : sub l l' -> NoDup l' -> NoDup l.
Proof. intros (r & R) H. apply Permutation_sym in R. apply (Permutation_NoDup R) in H. eapply NoDup_app_l; eauto. Qed.
Lemma sub_in l l' x : sub l l' -> In x l -> In x l'.
Proof. intros (r & R) H. apply (Permutation_in _ R). apply in_or_app; auto. Qed.
Lemma remove_first_sub {A} (g : A -> tok) f l : sub (map g (remove_first f l)) (map g l).
Proof.
  induction l as [|x l IH]; simpl; [apply sub_refl|]. destruct (f x).
  - exists [g x]. rewrite <- Permutation_cons_append. apply Permutation_refl.
  - destruct IH as (r & R). exists r. simpl. constructor. exact R.
Qed.
Lemma sub_app_l a a' b : sub a a' -> sub (a ++ b) (a' ++ b).
Proof. intros (r & R). exists r. rewrite <- app_assoc. rewrite (Permutation_app_comm b r). rewrite app_assoc. apply Permutation_app_tail. exact R. Qed.
Lemma sub_app_r a b b' : sub b b' -> sub (a ++ b) (a ++ b').
Proof. intros (r & R). exists r. rewrite <- app_assoc. apply Permutation_app_head. exact R. Qed.
Lemma sub_cons x l : sub l (x :: l).
Proof. exists [x]. rewrite <- Permutation_cons_append. apply Permutation_refl. Qed.
Lemma sub_trans a b c : sub a b -> sub b c -> sub a c.
Proof.
  intros (r1 & R1) (r2 & R2). exists (r1 ++ r2). rewrite app_assoc. rewrite R1. exact R2.
Qed.


Lemma effect_next_ge s o s1 r k : effect s o s1 r k -> next s <= next s1.
Proof. intros E. destruct E; simpl; lia. Qed.

Lemma step_next_ge s o : next s <= next (step_st s o).
Proof.
  apply (step_lift (fun s1 => next s <= next s1)); auto.
  - intros s1 H. destruct (trig_put_fields s1) as (_ & _ & _ & _ & _ & -> & _). exact H.
  - intros s1 s2 ts E H. destruct (trig_get_fields _ _ _ E) as (_ & _ & _ & _ & _ & -> & _). exact H.
  - intros s1 r k E. eapply effect_next_ge; eauto.
Qed.


Definition issued (mine : op -> bool) (s : store) (o : op) : list tok := if mine o then [next s] else [].

Section OneSide.
  Variables (tl : store -> list tok) (mine : op -> bool).
  (* the trigger loops only move tokens between the waiting and the granted requests *)
  Hypothesis tl_put : forall s, Permutation (tl (fst (trig_put s))) (tl s).
  Hypothesis tl_get : forall s s' ts, trig_get s = Some (s', ts) -> Permutation (tl s') (tl s).
  (* an operation's own update adds at most the token it issues, which is the counter's value,
     and then moves the counter past it *)
  Hypothesis tl_effect : forall s o s1 r k, effect s o s1 r k -> sub (tl s1) (issued mine s o ++ tl s).
  Hypothesis mine_next : forall s o s1 r k, effect s o s1 r k -> mine o = true -> next s < next s1.

  Definition Toks (s : store) : Prop := NoDup (tl s) /\ (forall t, In t (tl s) -> t < next s).

  (* a token present after an operation was present before, or is the one the operation just issued *)
  Lemma toks_origin s o t : In t (tl (step_st s o)) -> In t (tl s) \/ In t (issued mine s o).
  Proof.
    apply (step_lift (fun s1 => In t (tl s1) -> In t (tl s) \/ In t (issued mine s o))); auto.
    - intros s1 H K. apply H. eapply Permutation_in; [apply tl_put|exact K].
    - intros s1 s2 ts E H K. apply H. eapply Permutation_in; [apply (tl_get _ _ _ E)|exact K].
    - intros s1 r k E K. apply (sub_in _ _ _ (tl_effect _ _ _ _ _ E)) in K. apply in_app_or in K. tauto.
  Qed.

  Lemma toks_perm s s' : Permutation (tl s') (tl s) -> next s' = next s -> Toks s -> Toks s'.
  Proof.
    intros P N (ND & B). split.
    - eapply Permutation_NoDup; [symmetry; exact P|exact ND].
    - intros t K. rewrite N. apply B. eapply Permutation_in; [exact P|exact K].
  Qed.

  Lemma toks_step s o : Toks s -> Toks (step_st s o).
  Proof.
    intros HT. apply step_lift; auto.
    - intros s1. apply toks_perm; [apply tl_put|apply trig_put_fields].
    - intros s1 s2 ts E. apply toks_perm; [apply (tl_get _ _ _ E)|apply (trig_get_fields _ _ _ E)].
    - intros s1 r k E. destruct HT as (ND & B).
      pose proof (tl_effect _ _ _ _ _ E) as SB. pose proof (effect_next_ge _ _ _ _ _ E) as G. split.
      + eapply sub_nodup; [exact SB|]. unfold issued. destruct (mine o); auto.
        constructor; auto. intros K. apply B in K. lia.
      + intros t K. apply (sub_in _ _ _ SB), in_app_or in K as [K|K]; [|apply B in K; lia].
        unfold issued in K. destruct (mine o) eqn:M; [|contradiction].
        destruct K as [<-|[]]. eapply mine_next; eauto.
  Qed.
End OneSide.


Definition put_op (o : op) : bool := match o with RPut _ _ => true | _ => false end.

Lemma trig_put_ptl s : Permutation (ptl (fst (trig_put s))) (ptl s).
Proof.
  destruct (trig_put_cases s) as [(_ & ->)|(r & q & EQ & _ & ->)]; [reflexivity|].
  unfold ptl. rewrite EQ. simpl.
  rewrite map_app. simpl. rewrite app_assoc. rewrite <- Permutation_cons_append. apply Permutation_refl.
Qed.
Lemma trig_get_ptl s s' ts : trig_get s = Some (s', ts) -> Permutation (ptl s') (ptl s).
Proof. intros E. apply trig_get_fields in E. destruct E as (_ & _ & _ & E1 & E2 & _). unfold ptl. rewrite E1, E2. reflexivity. Qed.

Lemma effect_ptl s o s1 r k : effect s o s1 r k -> sub (ptl s1) (issued put_op s o ++ ptl s).
Proof.
  intros E. destruct E; unfold ptl; simpl; try apply sub_refl.
  - eapply sub_perm; [apply Permutation_app_tail, ins_toks|]. apply sub_refl.
  - apply sub_app_r, remove_first_sub.
  - apply sub_app_r, remove_first_sub.
  - apply sub_app_l, remove_first_sub.
  - apply sub_app_r, remove_first_sub.
Qed.

Lemma put_op_next s o s1 r k : effect s o s1 r k -> put_op o = true -> next s < next s1.
Proof. intros E. destruct E; simpl; intros; try discriminate; lia. Qed.

Definition issues (s : store) (o : op) (t : tok) : Prop := match o with RPut _ _ => t = next s | _ => False end.
Lemma pt_origin s o t : PT (step_st s o) t -> PT s t \/ issues s o t.
Proof.
  intros H. destruct (toks_origin ptl put_op trig_put_ptl trig_get_ptl effect_ptl s o t H) as [K|K]; auto.
  right. destruct o; simpl in *; try contradiction. destruct K as [<-|[]]. reflexivity.
Qed.

Theorem tokb_step s o : TokB s -> TokB (step_st s o).
Proof. exact (toks_step ptl put_op trig_put_ptl trig_get_ptl effect_ptl put_op_next s o). Qed.
Lemma init_tokb k m c : TokB (init k m c).
Proof. split; [constructor|]. intros t H. inversion H. Qed.

Lemma NoDup_app_parts {A} (a b : list A) :
  NoDup (a ++ b) -> NoDup a /\ NoDup b /\ (forall x, In x a -> ~ In x b).
Proof.
  intros ND. split; [eapply NoDup_app_l; eauto|]. split; [eapply NoDup_app_r; eauto|].
  intros x H1 H2. eapply NoDup_app_disj; eauto.
Qed.

(* cancelling a space request removes its token *)
Theorem cput_absent s t : TokB s -> ~ PT (step_st s (CPut t)) t.
Proof.
  intros (ND & _). apply NoDup_app_parts in ND as (N1 & N2 & N3). unfold step_st, PT. simpl.
  destruct (existsb (tokb t) (putq s)) eqn:E1.
  - rewrite let_trig_put. simpl. intros H. apply (Permutation_in _ (trig_put_ptl _)) in H.
    unfold ptl in H. simpl in H. apply in_app_or in H. destruct H as [H|H].
    + exact (remove_tok_absent t (putq s) N1 H).
    + apply existsb_exists in E1. destruct E1 as (x & Hx & Ex). unfold tokb in Ex. apply Nat.eqb_eq in Ex.
      eapply N3; [|exact H]. subst t. apply in_map. exact Hx.
  - destruct (existsb (tokb t) (putres s)) eqn:E2.
    + rewrite let_trig_put. simpl. intros H. apply (Permutation_in _ (trig_put_ptl _)) in H.
      unfold ptl in H. simpl in H. apply in_app_or in H. destruct H as [H|H].
      * exact (existsb_tokb_false t (putq s) E1 H).
      * exact (remove_tok_absent t (putres s) N2 H).
    + simpl. unfold ptl. intros H. apply in_app_or in H.
      destruct H as [H|H]; [exact (existsb_tokb_false t (putq s) E1 H)|exact (existsb_tokb_false t (putres s) E2 H)].
Qed.
