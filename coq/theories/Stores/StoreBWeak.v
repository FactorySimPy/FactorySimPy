(* C04 / C10 without side conditions.  The full invariant of the bound-item store (StoreBInv.Inv) needs the
   callers to put pairwise distinct objects.  Two of its consequences do not:
     W s      :  granted space reservations + items <= capacity,  and  granted retrievals <= ready items
     NoLost s :  no request is waiting while the store could serve the one next in line
   Both are kept by EVERY store operation in EVERY state (buffer and fleet stores), so they hold on every
   edge of every factory (lifted in theories/Factory/FactoryQueue.v). *)
From Coq Require Import List ZArith Lia Bool Arith.
From FV Require Import ListLemmas ListLemmas2 StoreB StoreBSteps StoreBInv StoreBProps StoreBCap.
Import ListNotations.

Definition W (s : store) : Prop := CapOK s /\ length (getres s) <= length (ready s).

Lemma trig_put_w s : W s -> W (fst (trig_put s)).
Proof.
  intros (A & B). split; [apply trig_put_cap, A|]. destruct (trig_put_fields s) as (_ & _ & -> & _ & -> & _). exact B.
Qed.
Lemma trig_get_w s s' ts : trig_get s = Some (s', ts) -> W s -> W s'.
Proof.
  intros E (A & B). split; [eapply trig_get_cap; eauto|].
  destruct (trig_get_cases _ _ _ E) as [(_ & -> & _)|(r & q & it & _ & EA & _ & -> & _)]; [exact B|].
  apply Nat.ltb_lt in EA. simpl. rewrite app_length. simpl. lia.
Qed.

Theorem w_step s o : W s -> W (step_st s o).
Proof.
  intros H. apply step_lift; [exact trig_put_w|exact trig_get_w|exact H|].
  intros s1 r k E. destruct H as (HC & HG). split; [exact (effect_cap _ _ _ _ _ E HC)|].
  destruct E; simpl; try exact HG.
  - apply remove_first_len_ex in RDY. apply nth_error_lt', (remove_nth_len_lt i) in NTH. lia.
  - pose proof (remove_nth_len i (getres s)). lia.
  - rewrite app_length. simpl. lia.
Qed.

Lemma init_w k m c : W (init k m c).
Proof. split; [apply init_cap|simpl; lia]. Qed.

Theorem step_nolost_w s o :
  is_belt (s_kind s) = false -> W s -> NoLost s -> NoLost (step_st s o).
Proof. intros NB (HC & _). apply step_nolost_cap; assumption. Qed.

(* both together, one step *)
Definition WN (s : store) : Prop := is_belt (s_kind s) = false /\ W s /\ NoLost s.
Theorem wn_step s o : WN s -> WN (step_st s o).
Proof.
  intros (NB & HW & NL). split; [rewrite step_kind; exact NB|]. split; [apply w_step, HW|apply step_nolost_w; auto].
Qed.
Lemma init_wn k m c : is_belt k = false -> WN (init k m c).
Proof. intros NB. split; [exact NB|]. split; [apply init_w|apply init_nolost]. Qed.
