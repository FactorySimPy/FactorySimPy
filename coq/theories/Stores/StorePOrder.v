(* Positional store model: no lost wake-up (C04), service order (C05), retrieval discipline (C06),
   rejection of ill-formed calls (C07). *)
From Coq Require Import List ZArith Lia Bool Arith Permutation Sorted.
From FV Require Import ListLemmas ListLemmas2 Queue StoreP StorePSteps StorePInv.
Import ListNotations.

Lemma ins_gins r q : ins r q = gins r_prio r q.
Proof. induction q as [|x q IH]; simpl; try rewrite IH; auto. Qed.

Notation qs := (qsorted r_prio r_tok).
Notation bel := (below r_tok).
Notation rlt := (klt r_prio r_tok).
Notation qk := (qok r_prio r_tok).

(* ------------------------------------------------------------------ C05 *)

Definition QInv (s : store) : Prop :=
  qs (putq s) /\ qs (getq s) /\ bel (next s) (putq s) /\ bel (next s) (getq s).

Lemma qinv_qok s : QInv s <-> qk (next s) (putq s) /\ qk (next s) (getq s).
Proof. unfold QInv, qok. tauto. Qed.

Lemma trig_put_q s : QInv s -> QInv (fst (trig_put s)).
Proof.
  intros HQ. destruct (trig_put_cases s) as [(_ & ->)|(r & q & E & _ & ->)]; [exact HQ|].
  apply qinv_qok in HQ as (P & G). apply qinv_qok. simpl.
  rewrite E in P. split; [exact (qok_tail _ _ _ _ _ P)|exact G].
Qed.

Lemma trig_get1_q s : QInv s -> QInv (fst (trig_get1 s)).
Proof.
  intros HQ. destruct (trig_get1_cases s) as [->|(r & q & a & x & b & E & _ & _ & ->)]; [exact HQ|].
  apply qinv_qok in HQ as (P & G). apply qinv_qok. simpl.
  rewrite E in G. split; [exact P|exact (qok_tail _ _ _ _ _ G)].
Qed.

Lemma trig_get_q s : QInv s -> QInv (fst (trig_get s)).
Proof. apply trig_get_lift. apply trig_get1_q. Qed.

Lemma step_qinv s o : QInv s -> QInv (step_st s o).
Proof.
  intros HQ. apply step_lift; [exact trig_put_q|exact trig_get_q|exact HQ|].
  intros s1 r k E. apply qinv_qok in HQ as (P & G). apply qinv_qok.
  destruct E; simpl; rewrite ?ins_gins; try (split; assumption).
  - split; [apply qok_gins; [reflexivity|exact P]|apply (qok_mono _ _ (next s)); auto].
  - split; [apply (qok_mono _ _ (next s)); auto|apply qok_gins; [reflexivity|exact G]].
  - split; [apply qok_remove_first, P|exact G].
  - split; [exact P|apply qok_remove_first, G].
  - split; apply (qok_mono _ _ (next s)); assumption.
Qed.

Lemma init_qinv k c td : QInv (init k c td).
Proof. apply qinv_qok. split; apply qok_nil. Qed.

Theorem qinv_reachable k c td ops : QInv (run (init k c td) ops).
Proof. apply run_inv; [apply step_qinv | apply init_qinv]. Qed.

Theorem trig_put_serves_min s s' t :
  QInv s -> trig_put s = (s', [t]) ->
  exists r q, putq s = r :: q /\ t = r_tok r /\ putq s' = q /\ putres s' = putres s ++ [r] /\
              forall y, In y q -> rlt r y.
Proof.
  intros (A & _) E. destruct (trig_put_cases s) as [(_ & E')|(r & q & EQ & _ & E')]; rewrite E' in E.
  { discriminate. }
  injection E as <- <-. exists r, q. simpl. repeat split; auto.
  intros y Hy. rewrite EQ in A. eapply sorted_head_min; eauto.
Qed.

Theorem trig_get_serves_min s s' t :
  QInv s -> trig_get1 s = (s', [t]) ->
  exists r q, getq s = r :: q /\ t = r_tok r /\ getq s' = q /\ getres s' = getres s ++ [r] /\
              forall y, In y q -> rlt r y.
Proof.
  intros (_ & B & _) E.
  destruct (trig_get1_cases s) as [E'|(r & q & a & x & b & EQ & _ & _ & E')]; rewrite E' in E.
  { discriminate. }
  injection E as <- <-. exists r, q. simpl. repeat split; auto.
  intros y Hy. rewrite EQ in B. eapply sorted_head_min; eauto.
Qed.

Lemma trig_put_at_most_one s : length (snd (trig_put s)) <= 1.
Proof. destruct (trig_put_cases s) as [(_ & ->)|(r & q & _ & _ & ->)]; simpl; auto. Qed.
Lemma trig_get_at_most_one s : length (snd (trig_get1 s)) <= 1.
Proof. destruct (trig_get1_cases s) as [->|(r & q & a & x & b & _ & _ & _ & ->)]; simpl; auto. Qed.

(* ------------------------------------------------------------------ C04 (stores without filters) *)

Definition NoLost (s : store) : Prop :=
  (putq s <> [] -> allow_put s = false) /\ (getq s <> [] -> allow_get s = false).

(* without filters the head request always matches the first unreserved item *)
Lemma nofilter_match s r : s_kind s <> KFilter -> forall it, fmatch (now s) (tdelay s) (eff_flt s r) it = true.
Proof. intros NF it. unfold eff_flt. destruct (s_kind s); try congruence; unfold fmatch; rewrite Nat.mod_1_r; reflexivity. Qed.

Lemma trig_get_nofilter s :
  s_kind s <> KFilter -> CapInv s ->
  trig_get s = match getq s with
               | [] => (s, [])
               | r :: q => if allow_get s
                           then (set_getres (set_getq s q) (getres s ++ [r]), [r_tok r])
                           else (s, [])
               end.
Proof.
  intros NF (_ & HL).
  assert (trig_get s = trig_get1 s) as -> by (unfold trig_get; destruct (s_kind s); congruence).
  unfold trig_get1. destruct (getq s) as [|r q]; auto.
  unfold allow_get. destruct (Nat.ltb_spec (length (getres s)) (length (items s))); auto.
  destruct (skipn (length (getres s)) (items s)) as [|x l] eqn:ES.
  { exfalso. pose proof (skipn_length (length (getres s)) (items s)) as K. rewrite ES in K. simpl in K. lia. }
  simpl. rewrite (nofilter_match s r NF x). simpl.
  rewrite <- ES, firstn_skipn.
  destruct s; reflexivity.
Qed.

Lemma ins_two r x q : exists a b c, ins r (x :: q) = a :: b :: c.
Proof.
  simpl. destruct (_ <? _)%Z; [eauto|]. destruct q; simpl; [eauto|]. destruct (_ <? _)%Z; eauto.
Qed.

(* How far each side is from "nothing servable is waiting": all but [n] of the waiting requests
   would find the store full (resp. every item bound) even with [n] more units free.
   Slack 0 on both sides is [NoLost]; a pass of a side's own trigger takes one unit of slack
   off it and does not look at the other side. *)
Definition put_slack (n : nat) (s : store) : Prop :=
  length (putq s) <= n \/ cap s <= length (putres s) + length (items s) + n.
Definition get_slack (n : nat) (s : store) : Prop :=
  length (getq s) <= n \/ length (items s) <= length (getres s) + n.

Lemma nolost_slack s : NoLost s <-> put_slack 0 s /\ get_slack 0 s.
Proof. unfold NoLost, allow_put, allow_get. rewrite !waiting_slack. reflexivity. Qed.

Lemma trig_put_slack s n : put_slack (S n) s -> put_slack n (fst (trig_put s)).
Proof.
  intros H. unfold put_slack in *.
  destruct (trig_put_cases s) as [([Q|A] & ->)|(r & q & Q & _ & ->)]; simpl.
  - left. rewrite Q. simpl. lia.
  - right. apply Nat.ltb_ge in A. lia.
  - rewrite Q in H. simpl in *. rewrite app_length. simpl. lia.
Qed.

Lemma trig_get_slack s n :
  s_kind s <> KFilter -> CapInv s -> get_slack (S n) s -> get_slack n (fst (trig_get s)).
Proof.
  intros NF HC H. rewrite trig_get_nofilter by auto. unfold get_slack, allow_get in *.
  destruct (getq s) as [|r q] eqn:Q; simpl; [rewrite Q; simpl; lia|].
  destruct (Nat.ltb_spec (length (getres s)) (length (items s))); simpl.
  - rewrite app_length. simpl in *. lia.
  - rewrite Q. simpl in *. lia.
Qed.

Lemma trig_put_get_slack s n : get_slack n s -> get_slack n (fst (trig_put s)).
Proof. unfold get_slack. destruct (trig_put_fields s) as (_ & -> & -> & -> & _). auto. Qed.

Lemma trig_get_put_slack s n : put_slack n s -> put_slack n (fst (trig_get s)).
Proof.
  unfold put_slack. rewrite trig_get_items_len.
  destruct (trig_get_fields s) as (-> & -> & -> & _). auto.
Qed.

Lemma trig_nolost k s :
  s_kind s <> KFilter -> CapInv s ->
  put_slack (after SPut k) s -> get_slack (after SGet k) s -> NoLost (trig k s).
Proof.
  intros NF HC HP HG. apply nolost_slack. destruct k as [[|]|]; simpl.
  - split; [apply trig_put_slack; exact HP|apply trig_put_get_slack; exact HG].
  - split; [apply trig_get_put_slack; exact HP|apply trig_get_slack; auto].
  - auto.
Qed.

Theorem step_nolost s o :
  s_kind s <> KFilter -> CapInv s -> NoLost s -> NoLost (step_st s o).
Proof.
  intros NF HC NL. unfold step_st.
  destruct (step_shape s o) as [e|s1 r k ts E]; [exact NL|]. simpl.
  destruct (effect_counts _ _ _ _ _ E HC) as (HC1 & P1 & P2 & G1 & G2).
  destruct (effect_fields _ _ _ _ _ E) as (EK & EC).
  apply nolost_slack in NL as (SP & SG).
  apply trig_nolost; [rewrite EK; exact NF|exact HC1| |]; unfold put_slack, get_slack in *; lia.
Qed.

Lemma step_kind s o : s_kind (step_st s o) = s_kind s.
Proof.
  apply (step_lift (fun s1 => s_kind s1 = s_kind s)); auto.
  - intros s1 <-. apply trig_put_fields.
  - intros s1 <-. apply trig_get_fields.
  - intros s1 r k E. apply (effect_fields _ _ _ _ _ E).
Qed.

Theorem nolost_reachable k c td ops :
  k <> KFilter -> NoLost (run (init k c td) ops).
Proof.
  intros NF. apply (run_inv (fun s => s_kind s <> KFilter /\ CapInv s /\ NoLost s)).
  - intros s o (A & B & C). rewrite step_kind. auto using step_cap, step_nolost.
  - split; [exact NF|]. split; [apply init_cap|]. split; intros N; contradiction N; reflexivity.
Qed.

(* ------------------------------------------------------------------ C06 *)

(* [items] = reserved prefix (bound, in reservation order) ++ unreserved items in service order *)
Definition unres (s : store) : list item := skipn (length (getres s)) (items s).

(* a grant binds the first unreserved item that satisfies the request's filter (the first
   unreserved item when the store has no filters) and keeps the order of all other items *)
Theorem grant_discipline s s' t :
  trig_get1 s = (s', [t]) ->
  exists r q a x b, getq s = r :: q /\ r_tok r = t /\ unres s = a ++ x :: b /\
    fmatch (now s) (tdelay s) (eff_flt s r) x = true /\
    forallb (fun y => negb (fmatch (now s) (tdelay s) (eff_flt s r) y)) a = true /\
    items s' = firstn (length (getres s)) (items s) ++ x :: a ++ b /\
    getres s' = getres s ++ [r].
Proof.
  intros E. destruct (trig_get1_cases s) as [E'|(r & q & a & x & b & EQ & _ & ES & E')]; rewrite E' in E.
  { discriminate. }
  injection E as <- <-. apply split_first_spec in ES as (E1 & E2 & E3).
  exists r, q, a, x, b. simpl. repeat split; auto.
Qed.

Theorem filtered_get_matches s s' t :
  CapInv s -> trig_get1 s = (s', [t]) ->
  exists r x, In r (getq s) /\ r_tok r = t /\
    nth_error (items s') (length (getres s)) = Some x /\
    fmatch (now s) (tdelay s) (eff_flt s r) x = true.
Proof.
  intros (_ & HL) E. destruct (grant_discipline _ _ _ E) as (r & q & a & x & b & Q & T & U & M & _ & I & _).
  exists r, x. rewrite Q. repeat split; auto; [left; auto|]. rewrite I.
  rewrite nth_error_app2; rewrite firstn_length, Nat.min_l by lia; [|lia].
  rewrite Nat.sub_diag. reflexivity.
Qed.

(* cancelling the i-th granted retrieval: its item becomes the first unreserved one (ahead of
   every never-reserved item), the other bound items and the unreserved items keep their order *)
Theorem cancel_granted_reinserts s t i it :
  CapInv s -> existsb (tokb t) (getq s) = false -> getq s = [] ->
  index_where (tokb t) (getres s) = Some i -> nth_error (items s) i = Some it ->
  let s1 := step_st s (CGet t) in
  getres s1 = remove_nth i (getres s) /\
  firstn (length (getres s1)) (items s1) = remove_nth i (firstn (length (getres s)) (items s)) /\
  unres s1 = it :: unres s.
Proof.
  intros (_ & HL) EQ Q EI EN. unfold step_st. simpl. rewrite EQ, EI, EN, let_trig. simpl.
  rewrite trig_get_nogrant by (right; exact Q). unfold unres. simpl.
  pose proof (index_where_lt _ _ _ EI) as LI. pose proof (remove_nth_len_lt _ _ LI) as LR.
  destruct (remove_nth_cut i (getres s) (items s) LI HL) as (L & ->).
  replace (length (getres s) - 1) with (length (remove_nth i (firstn (length (getres s)) (items s)))) by lia.
  rewrite insert_at_app, <- L, firstn_app_len, skipn_app_len. auto.
Qed.

(* ------------------------------------------------------------------ C07 *)

Definition illformed (s : store) (o : op) : bool :=
  match o with
  | Put p t _ => negb (existsb (owns p t) (putres s))
  | Get p t => negb (existsb (owns p t) (getres s))
  | CPut t => negb (existsb (tokb t) (putq s)) && negb (existsb (tokb t) (putres s))
  | CGet t => negb (existsb (tokb t) (getq s)) && negb (existsb (tokb t) (getres s))
  | _ => false
  end.

Theorem rejected_is_noop s o : illformed s o = true -> step s o = (s, OErr ERuntime, []).
Proof.
  destruct o; simpl; try discriminate.
  - intros H. apply negb_true_iff in H. rewrite H. reflexivity.
  - intros H. apply negb_true_iff in H. rewrite H. reflexivity.
  - intros H. apply andb_prop in H as (A & B). apply negb_true_iff in A, B. rewrite A, B. reflexivity.
  - intros H. apply andb_prop in H as (A & B). apply negb_true_iff in A, B. rewrite A.
    rewrite (index_where_none _ _ B). reflexivity.
Qed.

Theorem wellformed_accepted s o :
  CapInv s -> illformed s o = false ->
  match snd (fst (step s o)) with OErr _ => match o with Tick _ => True | _ => False end | _ => True end.
Proof.
  intros HC W. destruct o; simpl in W.
  - simpl. rewrite let_trig. simpl. auto.
  - simpl. rewrite let_trig. simpl. auto.
  - apply negb_false_iff in W. destruct (granted_put_ok s p t i HC W) as (K & _). rewrite K. auto.
  - apply negb_false_iff in W. destruct (granted_get_ok s p t HC W) as (i & it & _ & _ & K). rewrite K. auto.
  - simpl. destruct (existsb (tokb t) (putq s)); simpl in W.
    + rewrite let_trig. simpl. auto.
    + apply negb_false_iff in W. rewrite W, let_trig. simpl. auto.
  - simpl. destruct (existsb (tokb t) (getq s)); simpl in W.
    + rewrite let_trig. simpl. auto.
    + apply negb_false_iff in W. destruct (index_where_some _ _ W) as [i EI]. rewrite EI.
      pose proof (index_where_lt _ _ _ EI) as L. destruct HC as (_ & HL).
      destruct (nth_error (items s) i) as [it|] eqn:EN.
      2:{ apply nth_error_None in EN. lia. }
      rewrite let_trig. simpl. auto.
  - simpl. rewrite let_trig. simpl. auto.
  - simpl. destruct (0 <=? d)%Z; simpl; auto.
  - simpl. destruct (next s <=? n); simpl; auto.
Qed.

(* ------------------------------------------------------------------ C04 for the filter store *)

(* "the request that is next in line cannot be served now": one attempt on the head grants nothing *)
Definition NoLostF (s : store) : Prop := snd (trig_get1 s) = [].

(* the trigger loop of the filter store stops only when the head cannot be served *)
Lemma trig_get_n_exhausts n : forall s, length (getq s) <= n -> NoLostF (fst (trig_get_n n s)).
Proof.
  unfold NoLostF. induction n as [|n IH]; intros s L.
  - simpl. rewrite trig_get1_nogrant; auto. right. destruct (getq s); [reflexivity|inversion L].
  - rewrite trig_get_n_S.
    destruct (trig_get1_cases s) as [E|(r & q & a & x & b & Q & _ & _ & E)]; rewrite E; simpl.
    + rewrite E. reflexivity.
    + apply IH. simpl. rewrite Q in L. simpl in L. lia.
Qed.

Lemma trig_get_filter_exhausts s : s_kind s = KFilter -> NoLostF (fst (trig_get s)).
Proof. intros K. unfold trig_get. rewrite K. apply trig_get_n_exhausts. lia. Qed.

Lemma nolostF_view s s' :
  getq s' = getq s -> allow_get s' = allow_get s -> unres s' = unres s -> now s' = now s ->
  tdelay s' = tdelay s -> s_kind s' = s_kind s -> NoLostF s -> NoLostF s'.
Proof.
  unfold NoLostF, trig_get1, eff_flt. fold (unres s) (unres s'). intros -> -> -> -> -> ->.
  destruct (getq s); auto. destruct (allow_get s); auto. destruct (split_first _ _) as [[[a x] b]|]; auto.
Qed.

Lemma trig_put_nolostF s : NoLostF s -> NoLostF (fst (trig_put s)).
Proof.
  destruct (trig_put_fields s) as (_ & F1 & F2 & F3 & _ & F5 & F6 & F7).
  apply nolostF_view; unfold allow_get, unres; congruence.
Qed.

(* the operations that end with the retrieval trigger loop leave its fixed point; the others do
   not touch what an attempt on the head looks at -- except a get, which takes one item out of
   the reserved prefix together with its reservation *)
Theorem step_nolostF s o :
  s_kind s = KFilter -> CapInv s -> NoLostF s -> (forall d, o <> Tick d) -> NoLostF (step_st s o).
Proof.
  intros K HC NL NT. pose proof HC as (H1 & H2). unfold step_st.
  destruct (step_shape s o) as [e|s1 r k ts E]; [exact NL|]. simpl.
  destruct E; simpl; try (apply trig_get_filter_exhausts; exact K);
    try (apply trig_put_nolostF); try (apply (nolostF_view s); auto; fail).
  - (* Get *)
    pose proof (index_where_lt _ _ _ IDX) as LI.
    apply (nolostF_view s); auto.
    + unfold allow_get. simpl.
      rewrite <- (remove_nth_len_lt i (getres s)), <- (remove_nth_len_lt i (items s)); [reflexivity|lia|exact LI].
    + unfold unres. simpl. destruct (remove_nth_cut i (getres s) (items s) LI H2) as (L & ->).
      rewrite <- L. apply skipn_app_len.
  - exfalso. eapply NT. reflexivity.
Qed.

Fixpoint no_tick (ops : list op) : Prop :=
  match ops with [] => True | Tick _ :: _ => False | _ :: r => no_tick r end.

Theorem nolostF_reachable c td ops :
  no_tick ops -> NoLostF (run (init KFilter c td) ops).
Proof.
  intros NT.
  assert (forall s, s_kind s = KFilter /\ CapInv s /\ NoLostF s ->
                    NoLostF (run s ops)) as G.
  { unfold run. induction ops as [|o ops IH]; simpl; intros s (A & B & C); auto. apply IH.
    - destruct o; simpl in NT; auto; tauto.
    - repeat split.
      + rewrite step_kind. exact A.
      + apply step_cap; auto.
      + apply step_cap; auto.
      + apply step_nolostF; auto. intros d ->. simpl in NT. exact NT. }
  apply G. repeat split; simpl; auto; lia.
Qed.

(* time passing can make the default age filter of a waiting request true; the store's own
   timer runs the trigger loop at that moment, which restores the invariant *)
Theorem retrig_restores s : s_kind s = KFilter -> NoLostF (step_st s Retrig).
Proof. intros K. unfold step_st. simpl. rewrite let_trig. simpl. apply trig_get_filter_exhausts. exact K. Qed.
