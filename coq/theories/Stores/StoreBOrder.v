(* Bound-item store model: service order of requests (C05), retrieval discipline (C06),
   rejection of ill-formed calls (C07). *)
From Coq Require Import List ZArith Lia Bool Arith Permutation Sorted.
From FV Require Import ListLemmas ListLemmas2 Queue StoreB StoreBSteps StoreBInv StoreBProps.
Import ListNotations.

Lemma ins_gins r q : ins r q = gins r_prio r q.
Proof. induction q as [|x q IH]; simpl; try rewrite IH; auto. Qed.

Notation qs := (qsorted r_prio r_tok).
Notation bel := (below r_tok).
Notation rlt := (klt r_prio r_tok).
Notation qk := (qok r_prio r_tok).

(* ------------------------------------------------------------------ C05 *)

Definition QInv (s : store) : Prop :=
  qs (putq s) /\ qs (getq s) /\ bel (next s) (putq s) /\ bel (next s) (getq s).

Lemma qinv_qok s : QInv s <-> qk (next s) (putq s) /\ qk (next s) (getq s).
Proof. unfold QInv, qok. tauto. Qed.

Lemma trig_put_q s : QInv s -> QInv (fst (trig_put s)).
Proof.
  intros HQ. destruct (trig_put_cases s) as [(_ & ->)|(r & q & E & _ & ->)]; [exact HQ|].
  apply qinv_qok in HQ as (P & G). apply qinv_qok. simpl.
  rewrite E in P. split; [exact (qok_tail _ _ _ _ _ P)|exact G].
Qed.

Lemma trig_get_q s s' ts : trig_get s = Some (s', ts) -> QInv s -> QInv s'.
Proof.
  intros E HQ. destruct (trig_get_cases _ _ _ E) as [(_ & -> & _)|(r & q & it & EQ & _ & _ & -> & _)]; [exact HQ|].
  apply qinv_qok in HQ as (P & G). apply qinv_qok. simpl.
  rewrite EQ in G. split; [exact P|exact (qok_tail _ _ _ _ _ G)].
Qed.

Lemma step_qinv s o : QInv s -> QInv (step_st s o).
Proof.
  intros HQ. apply step_lift; [exact trig_put_q|exact trig_get_q|exact HQ|].
  intros s1 r k E. apply qinv_qok in HQ as (P & G). apply qinv_qok.
  destruct E; simpl; rewrite ?ins_gins; try (split; assumption).
  - split; [apply qok_gins; [reflexivity|exact P]|apply (qok_mono _ _ (next s)); auto].
  - split; [apply (qok_mono _ _ (next s)); auto|apply qok_gins; [reflexivity|exact G]].
  - split; [apply qok_remove_first, P|exact G].
  - split; [exact P|apply qok_remove_first, G].
  - split; apply (qok_mono _ _ (next s)); assumption.
Qed.

Lemma init_qinv k m c : QInv (init k m c).
Proof. apply qinv_qok. split; apply qok_nil. Qed.

Theorem qinv_reachable k m c ops : QInv (run (init k m c) ops).
Proof.
  unfold run. generalize (init_qinv k m c). generalize (init k m c).
  induction ops as [|o ops IH]; simpl; intros s H; auto. apply IH, step_qinv, H.
Qed.

(* every grant serves the request that is first by (priority, arrival), and leaves the others
   in their order *)
Theorem trig_put_serves_min s s' t :
  QInv s -> trig_put s = (s', [t]) ->
  exists r q, putq s = r :: q /\ t = r_tok r /\ putq s' = q /\ putres s' = putres s ++ [r] /\
              forall y, In y q -> rlt r y.
Proof.
  intros (A & _) E. destruct (trig_put_cases s) as [(_ & E')|(r & q & EQ & _ & E')]; rewrite E' in E.
  { discriminate. }
  injection E as <- <-. exists r, q. simpl. repeat split; auto.
  intros y Hy. rewrite EQ in A. eapply sorted_head_min; eauto.
Qed.

Theorem trig_get_serves_min s s' t :
  QInv s -> trig_get s = Some (s', [t]) ->
  exists r q it, getq s = r :: q /\ t = r_tok r /\ getq s' = q /\ getres s' = getres s ++ [(r, it)] /\
                 pick s = Some it /\ forall y, In y q -> rlt r y.
Proof.
  intros (_ & B & _) E.
  destruct (trig_get_cases _ _ _ E) as [(_ & _ & [=])|(r & q & it & EQ & _ & EP & -> & [= ->])].
  exists r, q, it. simpl. repeat split; auto.
  intros y Hy. rewrite EQ in B. eapply sorted_head_min; eauto.
Qed.

(* trigger functions grant at most one request per call *)
Lemma trig_put_at_most_one s : length (snd (trig_put s)) <= 1.
Proof. destruct (trig_put_cases s) as [(_ & ->)|(r & q & _ & _ & ->)]; simpl; auto. Qed.
Lemma trig_get_at_most_one s s' ts : trig_get s = Some (s', ts) -> length ts <= 1.
Proof.
  intros E. destruct (trig_get_cases _ _ _ E) as [(_ & _ & ->)|(r & q & it & _ & _ & _ & _ & ->)]; simpl; auto.
Qed.

(* ------------------------------------------------------------------ C06 *)

Lemma trig_put_ready s : ready (fst (trig_put s)) = ready s.
Proof. apply trig_put_fields. Qed.
Lemma trig_get_ready s s' ts : trig_get s = Some (s', ts) -> ready s' = ready s.
Proof. intros E. apply trig_get_fields in E. apply E. Qed.
Lemma trigs_ready k s s' : trigs k s s' -> ready s' = ready s.
Proof.
  intros T. induction T; auto; rewrite IHT; [apply trig_put_ready|eapply trig_get_ready; eauto].
Qed.

(* the availability order: ready_items only ever changes by appending the item that just became
   available, or by deleting the item that was retrieved *)
Theorem ready_shape s o :
  let '(s', r, _) := step s o in
  ready s' = ready s
  \/ (exists i, o = Ready i /\ ready s' = ready s ++ [i])
  \/ (exists it, r = OItem it /\ ready s' = remove_first (Nat.eqb it) (ready s)).
Proof.
  destruct (step_shape s o) as [e|s1 r k s' ts E T]; auto.
  rewrite (trigs_ready _ _ _ T). destruct E; simpl; auto.
  - right. right. exists it. auto.
  - right. left. exists i. auto.
Qed.

(* a grant binds the oldest (FIFO) / newest (LIFO) ready item that no other reservation holds *)
Theorem grant_discipline s s' t :
  trig_get s = Some (s', [t]) ->
  exists r it, getres s' = getres s ++ [(r, it)] /\ r_tok r = t /\
    match s_mode s with
    | FIFO => hd_error (unreserved s) = Some it
    | LIFO => hd_error (rev (unreserved s)) = Some it
    end.
Proof.
  intros E.
  destruct (trig_get_cases _ _ _ E) as [(_ & _ & [=])|(r & q & it & _ & _ & EP & -> & [= ->])].
  exists r, it. simpl. repeat split; auto.
  unfold pick in EP. destruct (s_mode s); exact EP.
Qed.

(* the unreserved items are always listed in availability order *)
Lemma unreserved_order s x y a b c :
  unreserved s = a ++ x :: b ++ y :: c -> exists a' b' c', ready s = a' ++ x :: b' ++ y :: c'.
Proof.
  unfold unreserved. generalize (fun it : nat => negb (existsb (Nat.eqb it) (reserved s))) as f.
  intros f. revert a. induction (ready s) as [|z l IH]; simpl; intros a E.
  - destruct a; discriminate.
  - destruct (f z).
    + destruct a as [|a0 a]; simpl in E.
      * inversion E; subst. clear IH E.
        assert (In y l) as Hy.
        { assert (In y (filter f l)) as K by (rewrite H1; apply in_or_app; right; left; auto).
          apply filter_In in K. apply K. }
        apply in_split in Hy as (l1 & l2 & ->). exists [], l1, l2. reflexivity.
      * inversion E; subst. destruct (IH _ H1) as (a' & b' & c' & ->). exists (a0 :: a'), b', c'. reflexivity.
    + destruct (IH _ E) as (a' & b' & c' & ->). exists (z :: a'), b', c'. reflexivity.
Qed.

(* cancelling a granted retrieval only unbinds its item: ready_items is untouched, so the item
   is back among the unreserved ones at its availability position; every other binding stays *)
Theorem cancel_granted_unbinds s t i r it :
  Inv s -> existsb (tokb t) (getq s) = false ->
  index_where (tokb2 t) (getres s) = Some i -> nth_error (getres s) i = Some (r, it) ->
  exists s1 ts, step s (CGet t) = (s1, OOk, ts) /\ ready s1 = ready s /\ transit s1 = transit s /\
    (getq s = [] -> getres s1 = remove_nth i (getres s) /\ In it (unreserved s1)).
Proof.
  intros HI EQ EI EN. destruct (inv_bound s t i HI EI) as (r' & it' & EN' & Hin).
  rewrite EN in EN'. injection EN' as <- <-.
  simpl. rewrite EQ, EI, EN, (proj2 (existsb_eqb_In _ _) Hin).
  destruct (trig_get_inv _ (inv_drop_getres s i HI)) as (s2 & ts & E & _). rewrite E. simpl.
  exists s2, ts. split; auto.
  destruct (trig_get_fields _ _ _ E) as (_ & T & R & _). simpl in *. repeat split; auto;
    rewrite (trig_get_nogrant _ _ _ E (or_intror H)); auto.
  destruct HI as (_ & _ & H3 & _).
  unfold unreserved, reserved. simpl. apply filter_In. split; auto.
  apply negb_true_iff, existsb_eqb_nIn. rewrite map_remove_nth.
  apply remove_nth_not_in; auto. rewrite nth_error_map, EN. reflexivity.
Qed.

(* ------------------------------------------------------------------ C07 *)

Definition illformed (s : store) (o : op) : bool :=
  match o with
  | Put p t _ => negb (existsb (owns p t) (putres s))
  | Get p t => negb (existsb (owns2 p t) (getres s))
  | CPut t => negb (existsb (tokb t) (putq s)) && negb (existsb (tokb t) (putres s))
  | CGet t => negb (existsb (tokb t) (getq s)) && negb (existsb (tokb2 t) (getres s))
  | _ => false
  end.

Theorem rejected_is_noop s o : illformed s o = true -> step s o = (s, OErr ERuntime, []).
Proof.
  destruct o; simpl; try discriminate.
  - intros H. apply negb_true_iff in H. rewrite H. reflexivity.
  - intros H. apply negb_true_iff in H. rewrite H. reflexivity.
  - intros H. apply andb_prop in H as (A & B). apply negb_true_iff in A, B. rewrite A, B. reflexivity.
  - intros H. apply andb_prop in H as (A & B). apply negb_true_iff in A, B. rewrite A.
    rewrite (index_where_none _ _ B). reflexivity.
Qed.

(* conversely a call that is not ill-formed never raises (given the invariant) *)
Theorem wellformed_accepted s o :
  Inv s -> fresh_op s o -> illformed s o = false ->
  match snd (fst (step s o)) with OErr _ => match o with Ready _ => True | _ => False end | _ => True end.
Proof.
  intros HI HF W. destruct o; simpl in W.
  - simpl. rewrite let_trig_put. simpl. auto.
  - simpl. rewrite after_get_ok by (apply inv_set_next, inv_set_getq, HI). auto.
  - apply negb_false_iff in W. destruct (granted_put_ok s p t i HI HF W) as (K & _). rewrite K. auto.
  - apply negb_false_iff in W. destruct (granted_get_ok s p t HI W) as (i & r & it & _ & _ & _ & K & _).
    rewrite K. auto.
  - simpl. destruct (existsb (tokb t) (putq s)); simpl in W.
    + rewrite let_trig_put. simpl. auto.
    + apply negb_false_iff in W. rewrite W, let_trig_put. simpl. auto.
  - simpl. destruct (existsb (tokb t) (getq s)); simpl in W.
    + rewrite after_get_ok by (apply inv_set_getq, HI). auto.
    + apply negb_false_iff in W. destruct (index_where_some _ _ W) as [i EI].
      destruct (inv_bound s t i HI EI) as (r & it & EN & Hin).
      rewrite EI, EN, (proj2 (existsb_eqb_In _ _) Hin), after_get_ok by (apply inv_drop_getres, HI). auto.
  - destruct (snd (fst _)); auto.
  - simpl. auto.
  - simpl. rewrite let_trig_put. simpl. auto.
  - simpl. destruct (next s <=? n); simpl; auto.
Qed.
