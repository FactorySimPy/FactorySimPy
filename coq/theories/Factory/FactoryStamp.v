(* Whole-factory invariant for C18 (cycle times, time stamps) and C19 (observed time):
   in every reachable world of every configuration
     - a sink's total cycle time is the sum, over the receptions in the trace, of reception time minus the
       creation stamp the sink read from the item;
     - no creation stamp lies in the future, and every reception is at or after the creation it reads;
     - the time stamps of the trace are non-decreasing and never ahead of the clock.
   The predicate carries "the clock shows T": no operation of a block moves the clock (only the kernel's pop does),
   which is what lets the stamp [wnow w0] taken at the beginning of a block be recognised as T at its end.
   The predicate survives every operation of the world; Steps.v lifts that to blocks and callbacks, the last part
   moves T forward with the kernel's pop. *)
From Coq Require Import List ZArith Lia Bool Arith Sorting.Sorted.
From RecordUpdate Require Import RecordUpdate.
From FV Require Import Kernel World Factory Steps.
From FV Require FactoryInv.
From FV Require StoreB.
Import ListNotations.
Open Scope Z_scope.

Definition ev_time (x : tev) : option Z :=
  match x with
  | LGen t _ _ | LPut t _ _ | LGet t _ _ _ | LDiscard t _ _ | LRecv t _ _ _ | LPack t _ _ _ => Some t
  | _ => None
  end.
Definition times (l : list tev) : list Z := flat_map (fun x => match ev_time x with Some t => [t] | None => [] end) l.
Definition recv_ok (x : tev) : Prop := match x with LRecv t _ _ c => c <= t | _ => True end.
Definition contrib (n : nat) (x : tev) : Z := match x with LRecv t m _ c => if Nat.eqb m n then t - c else 0 | _ => 0 end.
Definition cyc (n : nat) (l : list tev) : Z := fold_right (fun x a => contrib n x + a) 0 l.
Definition is_recv (x : tev) : bool := match x with LRecv _ _ _ _ => true | _ => false end.
Arguments times : simpl never.
Arguments cyc : simpl never.

Lemma times_snoc l x : times (l ++ [x]) = times l ++ match ev_time x with Some t => [t] | None => [] end.
Proof. unfold times. rewrite flat_map_app. simpl. rewrite app_nil_r. reflexivity. Qed.
Lemma cyc_snoc n l x : cyc n (l ++ [x]) = cyc n l + contrib n x.
Proof. unfold cyc. induction l as [|y l IH]; simpl; [lia|]. rewrite IH. lia. Qed.
Lemma ss_snoc l t : StronglySorted Z.le l -> Forall (fun x => x <= t) l -> StronglySorted Z.le (l ++ [t]).
Proof.
  induction 1 as [|y l S IH F]; simpl; intros B.
  - constructor; constructor.
  - inversion B; subst. constructor; auto. apply Forall_app. split; auto.
Qed.

(* clock-independent part, monotone in T *)
Definition cre_ok (T : Z) (it : iteminfo) : Prop := match i_creation it with Some c => c <= T | None => True end.
Definition YT (T : Z) (w : world) : Prop :=
  Forall (cre_ok T) (witems w) /\
  Forall (fun t => t <= T) (times (wlog w)) /\ StronglySorted Z.le (times (wlog w)) /\
  Forall recv_ok (wlog w) /\
  forall n, (n < length (wnodes w))%nat -> ncycle (get_node w n) = cyc n (wlog w).
Definition XT (T : Z) (w : world) : Prop := wnow w = T /\ YT T w.

Lemma YT_mono T T' w : T <= T' -> YT T w -> YT T' w.
Proof.
  intros L (A & B & C & D & E). repeat split; auto.
  - eapply Forall_impl; [|exact A]. intros it. unfold cre_ok. destruct (i_creation it); auto. lia.
  - eapply Forall_impl; [|exact B]. simpl. intros; lia.
Qed.

(* the kernel operations other than pop leave the clock alone (Kernel.Kept: none of the three moves touches it) *)
Section Clock.
Variable k : kern.
Let P (x : kern) : Prop := now x = now k.
Let always (A : Type) (x : A) : Prop := True.
Let P_new x : P x -> P (fst (new_event x)) := fun H => H.
Let P_add_cb x e c : always cb c -> P x -> P (add_cb x e c) := fun _ H => H.
Let P_trigger x e p d : always Z d -> e_trig (get_ev x e) = false -> P x -> P (schedule (mark_trig x e) e p d) := fun _ _ H => H.

Lemma now_succeed e k' : succeed k e = Some k' -> now k' = now k.
Proof. intros E. exact (kept_succeed P (always Z) I P_trigger _ _ _ E eq_refl). Qed.
Lemma now_check c : now (check k c) = now k.
Proof. exact (kept_check P (always Z) I P_trigger _ c eq_refl). Qed.
Lemma now_any_of es : now (fst (any_of k es)) = now k.
Proof. exact (kept_any_of P (always Z) (always cb) I (fun _ => I) P_new P_add_cb P_trigger _ es eq_refl). Qed.
Lemma now_res_trig_put r k' r' : res_trig_put k r = Some (k', r') -> now k' = now k.
Proof. intros E. exact (kept_res_trig_put P (always Z) I P_trigger _ _ _ _ E eq_refl). Qed.
Lemma now_res_trig_get r k' r' : res_trig_get k r = Some (k', r') -> now k' = now k.
Proof. intros E. exact (kept_res_trig_get P (always Z) I P_trigger _ _ _ _ E eq_refl). Qed.
Lemma now_res_request rid r k' r' q : res_request k rid r = Some (k', r', q) -> now k' = now k.
Proof. intros E. exact (kept_res_request P (always Z) (always cb) I (fun _ => I) P_new P_add_cb P_trigger _ _ _ _ _ _ E eq_refl). Qed.
Lemma now_res_release rid r q k' r' g : res_release k rid r q = Some (k', r', g) -> now k' = now k.
Proof. intros E. exact (kept_res_release P (always Z) (always cb) I (fun _ => I) P_new P_add_cb P_trigger _ _ _ _ _ _ _ E eq_refl). Qed.
End Clock.

Section AtTime.
Variable T : Z.
Notation CN := (XT T).

Lemma pnow w : CN w -> wnow w = T.
Proof. intros (A & _). exact A. Qed.

(* a world that differs only in kernel events / queue, edges, processes *)
Lemma same_c w w' : wnow w' = wnow w -> witems w' = witems w -> wlog w' = wlog w -> wnodes w' = wnodes w -> CN w -> CN w'.
Proof. unfold XT, YT, get_node. intros -> -> -> ->. auto. Qed.
Lemma setk_c w k : now k = now (wk w) -> CN w -> CN (w <| wk := k |>).
Proof. intros E. apply same_c; auto. Qed.

Lemma frame_c w w' :
  wnow w' = wnow w -> wlog w' = wlog w -> (Forall (cre_ok T) (witems w) -> Forall (cre_ok T) (witems w')) ->
  length (wnodes w') = length (wnodes w) -> (forall m, ncycle (get_node w' m) = ncycle (get_node w m)) -> CN w -> CN w'.
Proof.
  intros EN EL KI LN KC (N & A & B & C & D & E). unfold XT, YT. rewrite EN, EL, LN. repeat split; auto.
  intros m L. rewrite KC. apply E, L.
Qed.
Lemma upd_node_keep w n f : (forall x, ncycle (f x) = ncycle x) -> CN w -> CN (upd_node w n f).
Proof. intros K. apply frame_c; try reflexivity; auto. - apply upd_length. - intros m. apply (nth_upd_kept ncycle), K. Qed.
Lemma upd_item_c w i f : (forall y, cre_ok T y -> cre_ok T (f y)) -> CN w -> CN (upd_item w i f).
Proof. intros K. apply frame_c; try reflexivity. apply Forall_upd, K. Qed.
Lemma add_item_c w it : cre_ok T it -> CN w -> CN (w <| witems ::= fun l => l ++ [it] |>).
Proof. intros K. apply frame_c; try reflexivity. intros A. apply Forall_app. split; auto. Qed.

Lemma wnow_logw w x : wnow (logw w x) = wnow w.
Proof. reflexivity. Qed.
Lemma wnow_upd_node w n f : wnow (upd_node w n f) = wnow w.
Proof. reflexivity. Qed.

Lemma entry_c w w' x :
  wnow w' = wnow w -> witems w' = witems w -> wlog w' = wlog w ++ [x] -> length (wnodes w') = length (wnodes w) ->
  match ev_time x with Some t => t = T | None => True end -> recv_ok x ->
  (forall m, (m < length (wnodes w))%nat -> ncycle (get_node w' m) = ncycle (get_node w m) + contrib m x) ->
  CN w -> CN w'.
Proof.
  intros EN EI EL LN KT KR KC (N & A & B & C & D & E). unfold XT, YT. rewrite EN, EI, EL, LN, times_snoc.
  split; [exact N|]. split; [exact A|]. apply and_assoc. split.
  - destruct (ev_time x) as [t|]; [subst t|rewrite app_nil_r; auto].
    split; [apply Forall_app; split; auto; constructor; auto; lia|apply ss_snoc; auto].
  - split; [apply Forall_app; auto|]. intros m L. rewrite cyc_snoc, KC, (E m L) by exact L. reflexivity.
Qed.
Lemma logw_q w x : is_recv x = false -> match ev_time x with Some t => t = T | None => True end -> CN w -> CN (logw w x).
Proof.
  intros R KT. apply (entry_c w _ x); try reflexivity; auto; destruct x; try discriminate R; try exact I.
  all: intros m _; symmetry; apply Z.add_0_r.
Qed.
(* a trace entry without a time stamp *)
Lemma logw_c w x : ev_time x = None -> CN w -> CN (logw w x).
Proof. intros Q. apply logw_q; [destruct x; try discriminate Q; reflexivity|rewrite Q; exact I]. Qed.
(* the reception: counter, cycle total and trace move together *)
Lemma recv_pair w n t t' i c :
  t = T -> t' = T -> c <= T -> CN w ->
  CN (logw (upd_node w n (fun x => x <| nrecv ::= S |> <| ncycle ::= fun v => v + (t' - c) |>)) (LRecv t n i c)).
Proof.
  intros -> -> Hc. apply (entry_c w _ (LRecv T n i c)); try reflexivity.
  - apply upd_length.
  - exact Hc.
  - intros m L. unfold get_node, logw, upd_node. cbn [wnodes set]. simpl.
    destruct (Nat.eqb_spec n m) as [<-|NE]; [rewrite nth_upd_same by exact L; reflexivity|].
    rewrite nth_upd_other by exact NE. symmetry. apply Z.add_0_r.
Qed.
Lemma cre_le w i c : CN w -> i_creation (get_item w i) = Some c -> c <= T.
Proof.
  intros (_ & A & _) H. unfold get_item in H. destruct (Nat.lt_ge_cases i (length (witems w))) as [L|L].
  - rewrite Forall_forall in A. specialize (A _ (nth_In _ item0 L)). unfold cre_ok in A. rewrite H in A. exact A.
  - rewrite nth_overflow in H by exact L. discriminate.
Qed.

Create HintDb cdb.

Lemma crashw_c w c : CN w -> CN (crashw w c).
Proof. unfold crashw. destruct (wcrash w); auto. Qed.
Lemma upd_edge_c w e f : CN w -> CN (upd_edge w e f).
Proof. auto. Qed.
Lemma upd_proc_c w e f : CN w -> CN (upd_proc w e f).
Proof. auto. Qed.
Lemma setpc_c w p pc : CN w -> CN (setpc w p pc).
Proof. auto. Qed.
#[local] Hint Resolve crashw_c upd_edge_c upd_proc_c setpc_c : cdb.
Ltac cn_side :=
  let x := fresh in intros x;
  first [reflexivity
        | repeat (match goal with
                  | |- context [if ?b then _ else _] => destruct b
                  | |- context [match ?b with _ => _ end] => destruct b
                  end); reflexivity].
Ltac tnow := first [reflexivity | (rewrite ?wnow_upd_node, ?wnow_logw; apply pnow; auto 14 with cdb)].
#[local] Hint Extern 2 (CN (logw _ _)) => (apply logw_q; [reflexivity|first [exact I | cbn; tnow]|]) : cdb.
#[local] Hint Extern 1 (CN (logw (upd_node _ _ _) (LRecv _ _ _ _))) =>
  (eapply recv_pair; [tnow|tnow|(eapply cre_le; [|eassumption]; auto 14 with cdb)|]) : cdb.
#[local] Hint Extern 3 (CN (upd_node _ _ _)) => (apply upd_node_keep; [cn_side|]) : cdb.
#[local] Hint Extern 3 (CN (upd_item _ _ (fun _ => _ <| i_contents ::= _ |>))) => (apply upd_item_c; [intros ? ?; assumption|]) : cdb.
#[local] Hint Extern 3 (CN (upd_item _ _ (fun _ => _ <| i_contents := _ |>))) => (apply upd_item_c; [intros ? ?; assumption|]) : cdb.

Lemma w_succeed_c w e s : CN w -> CN (w_succeed w e s).
Proof.
  unfold w_succeed. intros H. destruct (succeed (wk w) e) eqn:E; [|apply crashw_c; auto].
  apply setk_c; auto. eapply now_succeed; eauto.
Qed.
#[local] Hint Resolve w_succeed_c : cdb.

Lemma w_succeed_all_c es : forall w, CN w -> CN (w_succeed_all w es).
Proof. apply succeed_all_lift; eauto using crashw_c, w_succeed_c. Qed.
#[local] Hint Resolve w_succeed_all_c : cdb.

Lemma w_event_c w w1 e : w_event w = (w1, e) -> CN w -> CN w1.
Proof. unfold w_event. simpl. intros [= <- _] H. apply setk_c; auto. Qed.

Lemma w_timeout_c w d w1 e : w_timeout w d = (w1, e) -> CN w -> CN w1.
Proof.
  unfold w_timeout. destruct (d <? 0).
  - intros [= <- _] H. auto with cdb.
  - destruct (timeout (wk w) d) as [k e0] eqn:E. intros [= <- _] H. apply setk_c; auto.
    apply (f_equal fst) in E. simpl in E. subst k. reflexivity.
Qed.

Lemma w_any_of_c w es w1 c : w_any_of w es = (w1, c) -> CN w -> CN w1.
Proof.
  unfold w_any_of. destruct (any_of (wk w) es) as [k e0] eqn:E. intros [= <- _] H. apply setk_c; auto.
  apply (f_equal fst) in E. simpl in E. subst k. apply now_any_of.
Qed.

Lemma spawn_c w p w1 pid d : spawn w p = (w1, pid, d) -> CN w -> CN w1.
Proof.
  unfold spawn. intros E H.
  destruct (w_event w) as [wa done] eqn:E1. destruct (w_event wa) as [wb ini] eqn:E2.
  inversion E; subst. clear E.
  assert (CN wb) as Hb by (eapply w_event_c; [exact E2|]; eapply w_event_c; [exact E1|]; exact H).
  revert Hb. apply same_c; reflexivity.
Qed.

Lemma e_update_level_c w e : CN w -> CN (e_update_level w e).
Proof. auto. Qed.
#[local] Hint Resolve e_update_level_c : cdb.
Lemma store_op_c w e o w1 r ts : store_op w e o = (w1, r, ts) -> CN w -> CN w1.
Proof. unfold store_op. destruct (StoreB.step _ _) as [[s' r0] ts0]. intros [= <- _ _] H. auto. Qed.
#[local] Hint Resolve w_event_c store_op_c : cdb.

Lemma out_err_c w r s : CN w -> CN (out_err w r s).
Proof. apply out_err_lift; eauto using crashw_c. Qed.
#[local] Hint Resolve out_err_c : cdb.

Lemma e_reserve_put_c w e p w1 t : e_reserve_put w e p = (w1, t) -> CN w -> CN w1.
Proof. eapply reserve_put_lift with (okop := fun _ => True); eauto with cdb. Qed.

Lemma e_reserve_get_c w e p w1 t : e_reserve_get w e p = (w1, t) -> CN w -> CN w1.
Proof. eapply reserve_get_lift with (okop := fun _ => True); eauto with cdb. Qed.

Lemma e_cancel_put_c w e t : CN w -> CN (e_cancel_put w e t).
Proof. eapply cancel_put_lift with (okop := fun _ => True); eauto with cdb. Qed.
Lemma e_cancel_get_c w e t : CN w -> CN (e_cancel_get w e t).
Proof. eapply cancel_get_lift with (okop := fun _ => True); eauto with cdb. Qed.
#[local] Hint Resolve e_cancel_put_c e_cancel_get_c : cdb.

Lemma fleet_after_put_c w e : CN w -> CN (fleet_after_put w e).
Proof. apply fleet_after_put_lift; eauto using crashw_c, w_succeed_c. Qed.
#[local] Hint Resolve fleet_after_put_c : cdb.

Lemma e_put_c w e p t i : CN w -> CN (e_put w e p t i).
Proof.
  unfold e_put. intros H. destruct (ek (get_edge w e)).
  - destruct (_ <? 0); [auto with cdb|].
    destruct (StoreB.step _ _) as [[s' r] ts]. destruct r; auto with cdb.
    destruct (spawn _ _) as [[w2 pid] d] eqn:E. apply logw_q; [reflexivity|apply pnow; exact H|]. apply w_succeed_all_c.
    eapply spawn_c; [exact E|]. auto with cdb.
  - destruct (StoreB.step _ _) as [[s' r] ts]. destruct r; auto with cdb.
Qed.
#[local] Hint Resolve e_put_c : cdb.

Lemma e_get_c w e p t n w1 r : e_get w e p t n = (w1, r) -> CN w -> CN w1.
Proof.
  unfold e_get. intros E H. destruct (StoreB.step _ _) as [[s' r0] ts]. destruct r0 as [?| |?|e0]; try destruct e0; inversion E; subst; auto 10 with cdb.
Qed.

Lemma update_state_c w n s : CN w -> CN (update_state w n s).
Proof. apply update_state_lift. intros w' f F. apply upd_node_keep, nf_ncycle, F. Qed.
#[local] Hint Resolve update_state_c : cdb.

Lemma cancel_others_cc w es ts keep put : CN w -> CN (cancel_others w es ts keep put).
Proof. apply cancel_others_lift; eauto using e_cancel_put_c, e_cancel_get_c. Qed.
#[local] Hint Resolve cancel_others_cc : cdb.

Lemma set_creation_c w i n : CN w -> CN (set_creation w i n).
Proof.
  intros H. unfold set_creation. apply upd_item_c; [|exact H].
  intros y _. unfold cre_ok. cbn. rewrite (pnow _ H). lia.
Qed.
Lemma update_state_rep_c w n : CN w -> CN (update_state_rep w n).
Proof. apply (update_state_rep_lift CN crashw_c). intros w' f F. apply upd_node_keep, nf_ncycle, F. Qed.
Lemma occupancy_c w n a : CN w -> CN (occupancy w n a).
Proof. intros H. unfold occupancy. auto 8 with cdb. Qed.
Lemma set_thread_c w n p b : CN w -> CN (set_thread w n p b).
Proof. intros H. unfold set_thread. auto 8 with cdb. Qed.
Lemma add_blocked_time_c w p n : CN w -> CN (add_blocked_time w p n).
Proof. intros H. unfold add_blocked_time. auto 8 with cdb. Qed.
#[local] Hint Resolve set_creation_c update_state_rep_c occupancy_c set_thread_c add_blocked_time_c : cdb.

#[local] Hint Resolve w_timeout_c w_any_of_c spawn_c e_reserve_put_c e_reserve_get_c e_get_c : cdb.

Lemma step_c kd pc0 p n w w' : step kd pc0 p n w w' -> CN w -> CN w'.
Proof.
  destruct 1; intros HC; subst; auto 7 with cdb.
  1: { destruct x; try contradiction; auto with cdb. simpl in H. subst. auto with cdb. }
  1: { apply add_item_c; [unfold cre_ok; rewrite H; exact I|exact HC]. }
  1: { apply upd_item_c; [intros y; unfold cre_ok; rewrite H; auto|exact HC]. }
  1: { apply upd_node_keep; [apply nf_ncycle; assumption|exact HC]. }
  1: { apply upd_node_keep; [apply nf_ncycle; assumption|exact HC]. }
  1: { apply upd_node_keep; [intros ?; reflexivity|]. apply setk_c; [eapply now_res_request; eassumption|exact HC]. }
  1: { apply upd_node_keep; [intros ?; reflexivity|]. apply setk_c; [eapply now_res_release; eassumption|exact HC]. }
  all: eauto 7 with cdb.
Qed.
Lemma discard_c n w1 w t i : CN w1 -> nblocking (get_node w1 n) = false -> CN w -> t = wnow w -> CN (discard w n t i).
Proof. intros _ _ H ->. unfold discard. auto with cdb. Qed.

Lemma sub_c kd pc0 p n w w' : (reach kd pc0 p n w w -> reach kd pc0 p n w w') -> CN w -> CN w'.
Proof. apply (sub_lift CN step_c discard_c). Qed.

Lemma source_loop_c w p n : CN w -> CN (fst (source_loop w p n)).
Proof. apply (sub_c KSourceB 0 p n), source_loop_r. Qed.
Lemma sink_loop_c w p n : CN w -> CN (fst (sink_loop w p n)).
Proof. apply (sub_c KSinkB 0 p n), sink_loop_r. Qed.
Lemma machine_request_c w p n : CN w -> CN (fst (machine_request w p n)).
Proof. apply (sub_c KMachineB 0 p n), machine_request_r. Qed.
Lemma machine_start_worker_c w p n i : CN w -> CN (fst (machine_start_worker w p n i)).
Proof. apply (sub_c KMachineB 0 p n), machine_start_worker_r. Qed.
Lemma worker_release_c w p n : CN w -> CN (fst (worker_release w p n)).
Proof. apply (sub_c KWorker 0 p n), worker_release_r. Qed.
Lemma check_state_c w n : CN w -> CN (check_state w n).
Proof. apply (sub_c KSplitWorker 0 0 n), check_state_r. exact I. Qed.
Lemma sc_request_c w p n pc : CN w -> CN (fst (sc_request w p n pc)).
Proof. apply (sub_c KSplitWorker 0 p n), sc_request_r. auto. Qed.
Lemma sc_release_c w p n : CN w -> CN (fst (sc_release w p n)).
Proof. apply (sub_c KSplitWorker 0 p n), sc_release_r. left; reflexivity. Qed.
Lemma sc_dispatch_c w p n c ph : CN w -> CN (fst (sc_dispatch w p n c ph)).
Proof. apply (sub_c KSplitWorker 0 p n), sc_dispatch_r. left; reflexivity. Qed.
Lemma sc_next_c w p n : CN w -> CN (fst (sc_next w p n)).
Proof. apply (sub_c KSplitWorker 0 p n), sc_next_r. left; reflexivity. Qed.
Lemma sc_worker_cont_c w p n : CN w -> CN (fst (sc_worker_cont w p n)).
Proof. apply (sub_c KSplitWorker 0 p n), sc_worker_cont_r. left; reflexivity. Qed.
Lemma splitter_head_c w p n : CN w -> CN (fst (splitter_head w p n)).
Proof. apply (sub_c KSplitterB 0 p n), splitter_head_r. Qed.
Lemma splitter_start_c w p n pal : CN w -> CN (fst (splitter_start w p n pal)).
Proof. apply (sub_c KSplitterB 0 p n), splitter_start_r. Qed.
Lemma combiner_head_c w p n : CN w -> CN (fst (combiner_head w p n)).
Proof. apply (sub_c KCombinerB 0 p n), combiner_head_r. Qed.
Lemma combiner_loop_c w p n : CN w -> CN (fst (combiner_loop w p n)).
Proof. apply (sub_c KCombinerB 0 p n), combiner_loop_r. Qed.

Lemma run_cbs_c l : forall w, CN w -> CN (fold_left run_cb l w).
Proof.
  apply (run_cbs_lift CN step_c discard_c); auto with cdb.
  - intros w c H. apply setk_c; [apply now_check|exact H].
  - intros w n k r E H. apply upd_node_keep; [intros ?; reflexivity|]. apply setk_c; [eapply now_res_trig_get; eauto|exact H].
  - intros w n k r E H. apply upd_node_keep; [intros ?; reflexivity|]. apply setk_c; [eapply now_res_trig_put; eauto|exact H].
Qed.

End AtTime.

(* one kernel step: the clock moves forward to the popped event's time, and the predicate moves with it *)
Theorem fstep_x w w' : KInv (wk w) -> XT (wnow w) w -> fstep w = Some w' -> XT (wnow w') w'.
Proof.
  unfold fstep. intros KI H. destruct (wcrash w); [discriminate|].
  destruct (pop (wk w)) as [[[k e] cbs]|] eqn:E; [|discriminate]. intros [= <-].
  destruct (pop_kinv _ _ _ _ KI E) as (_ & M).
  assert (XT (now k) (w <| wk := k |>)) as H0.
  { split; [reflexivity|]. apply (YT_mono (wnow w)); [exact M|]. destruct H as (_ & Y). exact Y. }
  pose proof (run_cbs_c (now k) cbs _ H0) as R. rewrite (pnow _ _ R). exact R.
Qed.

Lemma mk_world_c nodes edges order :
  (forall nd, In nd nodes -> ncycle nd = 0) -> XT 0 (mk_world nodes edges order).
Proof.
  intros H0. apply (FactoryInv.mk_steps_lift (XT 0)); eauto using spawn_c, w_event_c, upd_edge_c.
  split; [reflexivity|]. unfold YT. simpl. repeat split; try constructor.
  intros n L. apply H0. unfold get_node. simpl. apply nth_In. exact L.
Qed.

(* for every factory configuration whose sinks start with a zero cycle total, and every number of kernel steps *)
Theorem stamps_everywhere nodes edges order n :
  (forall nd, In nd nodes -> ncycle nd = 0) ->
  let w := FactoryInv.iter_fstep n (mk_world nodes edges order) in
  XT (wnow w) w.
Proof.
  intros H0.
  assert (forall m w, KInv (wk w) -> XT (wnow w) w -> XT (wnow (FactoryInv.iter_fstep m w)) (FactoryInv.iter_fstep m w)) as G.
  { induction m as [|m IH]; simpl; intros w K H; auto. destruct (fstep w) as [w'|] eqn:E; auto.
    apply IH; [exact (proj1 (FactoryInv.fstep_k _ _ K E))|eapply fstep_x; eauto]. }
  intros w. apply G; [apply FactoryInv.mk_world_k|].
  pose proof (mk_world_c nodes edges order H0) as M. rewrite (pnow _ _ M). exact M.
Qed.

Theorem cycle_time_is_sum nodes edges order n :
  (forall nd, In nd nodes -> ncycle nd = 0) ->
  let w := FactoryInv.iter_fstep n (mk_world nodes edges order) in
  forall i, (i < length (wnodes w))%nat -> ncycle (get_node w i) = cyc i (wlog w).
Proof. intros H0 w. destruct (stamps_everywhere nodes edges order n H0) as (_ & _ & _ & _ & _ & E). exact E. Qed.

Theorem reception_not_before_creation nodes edges order n :
  (forall nd, In nd nodes -> ncycle nd = 0) ->
  let w := FactoryInv.iter_fstep n (mk_world nodes edges order) in
  Forall recv_ok (wlog w) /\ Forall (cre_ok (wnow w)) (witems w).
Proof. intros H0 w. destruct (stamps_everywhere nodes edges order n H0) as (_ & A & _ & _ & D & _). auto. Qed.

Theorem trace_times_nondecreasing nodes edges order n :
  (forall nd, In nd nodes -> ncycle nd = 0) ->
  let w := FactoryInv.iter_fstep n (mk_world nodes edges order) in
  StronglySorted Z.le (times (wlog w)) /\ Forall (fun t => t <= wnow w) (times (wlog w)).
Proof. intros H0 w. destruct (stamps_everywhere nodes edges order n H0) as (_ & _ & B & C & _). auto. Qed.
