(* Whole-factory invariant DI: in every reachable world of every configuration a node's blocking flag
   is the configured one and a blocking node has discarded nothing -- C09's "a blocking node never
   discards".  DI survives every operation of the world; Steps.v and FactoryInv.v lift that to every run. *)
From Coq Require Import List ZArith Lia Bool Arith.
From RecordUpdate Require Import RecordUpdate.
From FV Require Import Kernel World Factory Steps.
From FV Require FactoryInv.
From FV Require StoreB.
Import ListNotations.
Open Scope Z_scope.

Section Config.
Variable bl : list bool.     (* the configured blocking flag of every node *)

Definition R (b : bool) (nd : node) : Prop := nblocking nd = b /\ (b = true -> ndisc nd = 0%nat).
Definition DI (w : world) : Prop :=
  length (wnodes w) = length bl /\ forall i, (i < length bl)%nat -> R (nth i bl true) (get_node w i).

Create HintDb ddb.

Lemma get_upd_same w n f : (n < length (wnodes w))%nat -> get_node (upd_node w n f) n = f (get_node w n).
Proof. intros L. unfold get_node, upd_node. cbn [wnodes set]. simpl. apply nth_upd_same, L. Qed.
Lemma get_upd_other w n m f : n <> m -> get_node (upd_node w n f) m = get_node w m.
Proof. intros NE. unfold get_node, upd_node. cbn [wnodes set]. simpl. apply nth_upd_other, NE. Qed.

Lemma upd_node_at w n f :
  (R (nth n bl true) (get_node w n) -> R (nth n bl true) (f (get_node w n))) -> DI w -> DI (upd_node w n f).
Proof.
  intros K (L & H). split.
  - unfold upd_node. cbn [wnodes set]. simpl. rewrite upd_length. exact L.
  - intros i Hi. destruct (Nat.eq_dec n i) as [->|NE].
    + rewrite get_upd_same; [|lia]. apply K, H, Hi.
    + rewrite get_upd_other; auto.
Qed.
Lemma DI_blocking w n : DI w -> nblocking (get_node w n) = false -> nth n bl true = false.
Proof.
  intros (L & H) Hb. destruct (Nat.ltb_spec n (length bl)) as [Hn|Hn].
  - destruct (H n Hn) as (A & _). congruence.
  - unfold get_node in Hb. rewrite nth_overflow in Hb; [discriminate|lia].
Qed.

Lemma crashw_d w c : DI w -> DI (crashw w c).
Proof. unfold crashw. destruct (wcrash w); auto. Qed.
Lemma logw_d w x : DI w -> DI (logw w x).
Proof. auto. Qed.
Lemma upd_edge_d w e f : DI w -> DI (upd_edge w e f).
Proof. auto. Qed.
Lemma upd_proc_d w e f : DI w -> DI (upd_proc w e f).
Proof. auto. Qed.
Lemma upd_item_d w e f : DI w -> DI (upd_item w e f).
Proof. auto. Qed.
Lemma setpc_d w p pc : DI w -> DI (setpc w p pc).
Proof. auto. Qed.
#[local] Hint Resolve crashw_d logw_d upd_edge_d upd_proc_d upd_item_d setpc_d : ddb.
(* side condition of a node update: the flag is untouched, and the discard counter is either untouched
   or incremented at a place where the block has just tested that the node is not blocking *)
Ltac side_plain := let Hx := fresh in intros Hx; exact Hx.
Ltac side_disc :=
  let A := fresh in let B := fresh in let C := fresh in
  intros [A B]; split; [exact A|];
  intros C; first [exact (B C)
    | exfalso;
      match goal with
      | Hb : nblocking (get_node ?w0 ?n) = false, H0 : DI ?w0 |- _ =>
          rewrite (DI_blocking w0 n H0 Hb) in C; discriminate
      end].
Ltac drok_side :=
  first [side_plain
        | side_disc
        | repeat (match goal with
                  | |- context [if ?b then _ else _] => destruct b
                  | |- context [match ?b with _ => _ end] => destruct b
                  end); side_plain].
#[local] Hint Extern 3 (DI (upd_node _ _ _)) => (apply upd_node_at; [drok_side|]) : ddb.

Lemma w_succeed_d w e s : DI w -> DI (w_succeed w e s).
Proof.
  unfold w_succeed. intros H. destruct (succeed (wk w) e) eqn:E; [exact H|apply crashw_d; auto].
Qed.
#[local] Hint Resolve w_succeed_d : ddb.

Lemma w_succeed_all_d es : forall w, DI w -> DI (w_succeed_all w es).
Proof. apply succeed_all_lift; eauto using crashw_d, w_succeed_d. Qed.
#[local] Hint Resolve w_succeed_all_d : ddb.

Lemma w_event_d w w1 e : w_event w = (w1, e) -> DI w -> DI w1.
Proof. unfold w_event. simpl. intros [= <- _] H. exact H. Qed.

Lemma w_timeout_d w d w1 e : w_timeout w d = (w1, e) -> DI w -> DI w1.
Proof.
  unfold w_timeout. destruct (d <? 0).
  - intros [= <- _] H. auto with ddb.
  - destruct (timeout (wk w) d) as [k e0]. intros [= <- _] H. exact H.
Qed.

Lemma w_any_of_d w es w1 c : w_any_of w es = (w1, c) -> DI w -> DI w1.
Proof.
  unfold w_any_of. destruct (any_of (wk w) es) as [k e0]. intros [= <- _] H. exact H.
Qed.

Lemma spawn_d w p w1 pid d : spawn w p = (w1, pid, d) -> DI w -> DI w1.
Proof.
  unfold spawn. intros E H.
  destruct (w_event w) as [wa done] eqn:E1. destruct (w_event wa) as [wb ini] eqn:E2.
  inversion E; subst. clear E.
  assert (DI wb) as Hb by (eapply w_event_d; [exact E2|]; eapply w_event_d; [exact E1|]; exact H). exact Hb.
Qed.

Lemma e_update_level_d w e : DI w -> DI (e_update_level w e).
Proof. auto. Qed.
#[local] Hint Resolve e_update_level_d : ddb.

Lemma store_op_d w e o w1 r ts : store_op w e o = (w1, r, ts) -> DI w -> DI w1.
Proof. unfold store_op. destruct (StoreB.step _ _) as [[s' r0] ts0]. intros [= <- _ _] H. auto. Qed.
#[local] Hint Resolve w_event_d store_op_d : ddb.

Lemma out_err_d w r s : DI w -> DI (out_err w r s).
Proof. apply out_err_lift; eauto using crashw_d. Qed.
#[local] Hint Resolve out_err_d : ddb.

Lemma e_reserve_put_d w e p w1 t : e_reserve_put w e p = (w1, t) -> DI w -> DI w1.
Proof. eapply reserve_put_lift with (okop := fun _ => True); eauto with ddb. Qed.

Lemma e_reserve_get_d w e p w1 t : e_reserve_get w e p = (w1, t) -> DI w -> DI w1.
Proof. eapply reserve_get_lift with (okop := fun _ => True); eauto with ddb. Qed.

Lemma e_cancel_put_d w e t : DI w -> DI (e_cancel_put w e t).
Proof. eapply cancel_put_lift with (okop := fun _ => True); eauto with ddb. Qed.
Lemma e_cancel_get_d w e t : DI w -> DI (e_cancel_get w e t).
Proof. eapply cancel_get_lift with (okop := fun _ => True); eauto with ddb. Qed.
#[local] Hint Resolve e_cancel_put_d e_cancel_get_d : ddb.

Lemma fleet_after_put_d w e : DI w -> DI (fleet_after_put w e).
Proof. apply fleet_after_put_lift; eauto using crashw_d, w_succeed_d. Qed.
#[local] Hint Resolve fleet_after_put_d : ddb.

Lemma e_put_d w e p t i : DI w -> DI (e_put w e p t i).
Proof. apply (put_lift DI crashw_d w_succeed_d upd_edge_d); [intros *; apply spawn_d|intros w0 x _; apply logw_d]. Qed.
#[local] Hint Resolve e_put_d : ddb.

Lemma e_get_d w e p t n w1 r : e_get w e p t n = (w1, r) -> DI w -> DI w1.
Proof. apply (get_lift DI crashw_d w_succeed_d upd_edge_d). intros w0 x _. apply logw_d. Qed.

Lemma R_frame f : node_frame f -> forall b x, R b x -> R b (f x).
Proof. intros F b x. unfold R. rewrite (nf_nblocking f F), (nf_ndisc f F). auto. Qed.
Lemma update_state_d w n s : DI w -> DI (update_state w n s).
Proof. apply update_state_lift. intros w' f F. apply upd_node_at, R_frame, F. Qed.
#[local] Hint Resolve update_state_d : ddb.

Lemma cancel_others_dd w es ts keep put : DI w -> DI (cancel_others w es ts keep put).
Proof. apply cancel_others_lift; eauto using e_cancel_put_d, e_cancel_get_d. Qed.
#[local] Hint Resolve cancel_others_dd : ddb.

Lemma set_creation_d w i n : DI w -> DI (set_creation w i n).
Proof. intros H. unfold set_creation. auto 8 with ddb. Qed.
Lemma update_state_rep_d w n : DI w -> DI (update_state_rep w n).
Proof. apply (update_state_rep_lift DI crashw_d). intros w' f F. apply upd_node_at, R_frame, F. Qed.
Lemma occupancy_d w n a : DI w -> DI (occupancy w n a).
Proof. intros H. unfold occupancy. auto 8 with ddb. Qed.
Lemma set_thread_d w n p b : DI w -> DI (set_thread w n p b).
Proof. intros H. unfold set_thread. auto 8 with ddb. Qed.
Lemma add_blocked_time_d w p n : DI w -> DI (add_blocked_time w p n).
Proof. intros H. unfold add_blocked_time. auto 8 with ddb. Qed.
#[local] Hint Resolve set_creation_d update_state_rep_d occupancy_d set_thread_d add_blocked_time_d : ddb.

#[local] Hint Resolve w_timeout_d w_any_of_d spawn_d e_reserve_put_d e_reserve_get_d e_get_d : ddb.

Lemma step_d kd pc0 p n w w' : step kd pc0 p n w w' -> DI w -> DI w'.
Proof.
  destruct 1; intros HD; auto 6 with ddb.
  1, 2: (apply upd_node_at; [apply R_frame; assumption|exact HD]).
  all: eauto 6 with ddb.
Qed.
Lemma discard_d n w1 w t i : DI w1 -> nblocking (get_node w1 n) = false -> DI w -> t = wnow w -> DI (discard w n t i).
Proof. intros H1 Hb H _. unfold discard. auto with ddb. Qed.

Lemma sub_d kd pc0 p n w w' : (reach kd pc0 p n w w -> reach kd pc0 p n w w') -> DI w -> DI w'.
Proof. apply (sub_lift DI step_d discard_d). Qed.

Lemma source_loop_d w p n : DI w -> DI (fst (source_loop w p n)).
Proof. apply (sub_d KSourceB 0 p n), source_loop_r. Qed.
Lemma sink_loop_d w p n : DI w -> DI (fst (sink_loop w p n)).
Proof. apply (sub_d KSinkB 0 p n), sink_loop_r. Qed.
Lemma machine_request_d w p n : DI w -> DI (fst (machine_request w p n)).
Proof. apply (sub_d KMachineB 0 p n), machine_request_r. Qed.
Lemma machine_start_worker_d w p n i : DI w -> DI (fst (machine_start_worker w p n i)).
Proof. apply (sub_d KMachineB 0 p n), machine_start_worker_r. Qed.
Lemma worker_release_d w p n : DI w -> DI (fst (worker_release w p n)).
Proof. apply (sub_d KWorker 0 p n), worker_release_r. Qed.
Lemma check_state_d w n : DI w -> DI (check_state w n).
Proof. apply (sub_d KSplitWorker 0 0 n), check_state_r. exact I. Qed.
Lemma sc_request_d w p n pc : DI w -> DI (fst (sc_request w p n pc)).
Proof. apply (sub_d KSplitWorker 0 p n), sc_request_r. auto. Qed.
Lemma sc_release_d w p n : DI w -> DI (fst (sc_release w p n)).
Proof. apply (sub_d KSplitWorker 0 p n), sc_release_r. left; reflexivity. Qed.
Lemma sc_dispatch_d w p n c ph : DI w -> DI (fst (sc_dispatch w p n c ph)).
Proof. apply (sub_d KSplitWorker 0 p n), sc_dispatch_r. left; reflexivity. Qed.
Lemma sc_next_d w p n : DI w -> DI (fst (sc_next w p n)).
Proof. apply (sub_d KSplitWorker 0 p n), sc_next_r. left; reflexivity. Qed.
Lemma sc_worker_cont_d w p n : DI w -> DI (fst (sc_worker_cont w p n)).
Proof. apply (sub_d KSplitWorker 0 p n), sc_worker_cont_r. left; reflexivity. Qed.
Lemma splitter_head_d w p n : DI w -> DI (fst (splitter_head w p n)).
Proof. apply (sub_d KSplitterB 0 p n), splitter_head_r. Qed.
Lemma splitter_start_d w p n pal : DI w -> DI (fst (splitter_start w p n pal)).
Proof. apply (sub_d KSplitterB 0 p n), splitter_start_r. Qed.
Lemma combiner_head_d w p n : DI w -> DI (fst (combiner_head w p n)).
Proof. apply (sub_d KCombinerB 0 p n), combiner_head_r. Qed.
Lemma combiner_loop_d w p n : DI w -> DI (fst (combiner_loop w p n)).
Proof. apply (sub_d KCombinerB 0 p n), combiner_loop_r. Qed.

Lemma run_cbs_d l : forall w, DI w -> DI (fold_left run_cb l w).
Proof.
  apply (run_cbs_lift DI step_d discard_d); auto with ddb;
    intros w n k r E H; (apply (upd_node_at (w <| wk := k |>)); [intros Hx; exact Hx|exact H]).
Qed.

End Config.

Theorem fstep_d bl w w' : DI bl w -> fstep w = Some w' -> DI bl w'.
Proof. apply (FactoryInv.fstep_lift (DI bl)); auto using run_cbs_d. Qed.

Lemma mk_world_d nodes edges order :
  (forall nd, In nd nodes -> nblocking nd = true -> ndisc nd = 0%nat) ->
  DI (map nblocking nodes) (mk_world nodes edges order).
Proof.
  intros H0. apply (FactoryInv.mk_steps_lift (DI (map nblocking nodes))); eauto using spawn_d, w_event_d, upd_edge_d.
  split; simpl.
  - rewrite map_length. reflexivity.
  - intros i Hi. rewrite map_length in Hi. unfold get_node. simpl.
    rewrite (nth_indep (map nblocking nodes) true (nblocking node0)) by (rewrite map_length; exact Hi).
    rewrite map_nth. split; auto. apply H0. apply nth_In. exact Hi.
Qed.

(* C09 (first half) at full strength: for every factory configuration whose blocking nodes start with
   a zero discard counter, and every number of kernel steps, a blocking node has discarded nothing
   and every node still has its configured blocking flag *)
Theorem blocking_never_discards nodes edges order n :
  (forall nd, In nd nodes -> nblocking nd = true -> ndisc nd = 0%nat) ->
  forall i, (i < length nodes)%nat ->
    let nd := get_node (FactoryInv.iter_fstep n (mk_world nodes edges order)) i in
    nblocking nd = nblocking (nth i nodes node0) /\ (nblocking nd = true -> ndisc nd = 0%nat).
Proof.
  intros H0 i Hi.
  destruct (FactoryInv.iter_fstep_lift (DI (map nblocking nodes)) (fun w k _ _ _ H => H) (run_cbs_d _) n _ (mk_world_d nodes edges order H0)) as (L & K).
  assert (i < length (map nblocking nodes))%nat as Hi' by (rewrite map_length; exact Hi).
  destruct (K i Hi') as (A & B).
  rewrite (nth_indep (map nblocking nodes) true (nblocking node0)) in A, B by exact Hi'.
  rewrite map_nth in A, B. cbv zeta. split; [exact A|]. intros C. apply B. congruence.
Qed.
