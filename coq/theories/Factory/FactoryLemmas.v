(* Small model-level lemmas used by the property files C16 and C20. *)
From Coq Require Import List ZArith Lia.
From FV Require Import ListLemmas World Factory.
Import ListNotations.
Open Scope Z_scope.

(* ---------------------------------------------------------------- C16: the combiner's recipe *)
(* the inner loop reserves exactly q tokens on one ingredient edge, all tagged with its index k *)
Lemma rep_counts e p k q : forall a,
  snd (comb_rep e p k q a) = snd a ++ repeat k q /\
  length (snd (fst (comb_rep e p k q a))) = (length (snd (fst a)) + q)%nat.
Proof.
  induction q as [|q IH]; intros [[w0 ts] ix]; simpl.
  - rewrite app_nil_r. split; auto.
  - destruct (e_reserve_get w0 e p) as [w1 t]. specialize (IH (w1, ts ++ [t], ix ++ [k])). simpl in IH.
    destruct IH as (A & B). split.
    + rewrite A. rewrite <- app_assoc. reflexivity.
    + rewrite B, app_length. simpl. lia.
Qed.

(* the tags of the tokens reserved for a recipe: index k repeated recipe[k] times, k = 1, 2, ... *)
Fixpoint recipe_tags (k : nat) (n_edges : nat) (recipe : list nat) : option (list nat) :=
  match n_edges with
  | O => Some []
  | S m => match nth_error recipe k with
           | None => None
           | Some q => match recipe_tags (S k) m recipe with
                       | Some r => Some (repeat k q ++ r)
                       | None => None
                       end
           end
  end.

Lemma comb_go_tags rc p es : forall k acc,
  match comb_go rc p k es acc, recipe_tags k (length es) rc with
  | Some (_, toks, idxs), Some tags => idxs = snd acc ++ tags /\ length toks = (length (snd (fst acc)) + length tags)%nat
  | None, None => True
  | Some _, None => False
  | None, Some _ => False
  end.
Proof.
  induction es as [|e rest IH]; intros k acc; simpl.
  - destruct acc as [[w0 ts] ix]. simpl. rewrite app_nil_r. split; auto.
  - destruct (nth_error rc k) as [q|]; auto.
    destruct (rep_counts e p k q acc) as (R1 & R2).
    specialize (IH (S k) (comb_rep e p k q acc)).
    destruct (comb_go rc p (S k) rest (comb_rep e p k q acc)) as [[[w2 toks] idxs]|];
      destruct (recipe_tags (S k) (length rest) rc) as [tags|]; auto.
    destruct IH as (A & B). split.
    + rewrite A, R1, <- app_assoc. reflexivity.
    + rewrite B, R2, !app_length, repeat_length. lia.
Qed.

(* Combiner.behaviour reserves, for every ingredient edge i >= 1, exactly target_quantity[i] tokens
   tagged i -- no more, no fewer; with a recipe that is too short it raises IndexError *)
Theorem combiner_reserves_recipe w p n :
  match combiner_reserve w p n, recipe_tags 1 (length (tl (nins (get_node w n)))) (nrecipe (get_node w n)) with
  | Some (_, toks, idxs), Some tags => idxs = tags /\ length toks = length tags
  | None, None => True
  | Some _, None => False
  | None, Some _ => False
  end.
Proof.
  unfold combiner_reserve. cbv zeta.
  pose proof (comb_go_tags (nrecipe (get_node w n)) p (tl (nins (get_node w n))) 1%nat (w, [], [])) as G.
  simpl in G. exact G.
Qed.

(* each round of the gathering loop consumes exactly one outstanding token (and its tag) *)
Lemma remove_nth_count (l : list nat) ti : (ti < length l)%nat -> S (length (remove_nth ti l)) = length l.
Proof. apply remove_nth_len_lt. Qed.

(* ---------------------------------------------------------------- C20: invalid configurations *)
Theorem invalid_constant_index_rejected pol n :
  (exists i, pol = PConst i /\ in_range i n = false) -> policy_ok pol n <> None.
Proof. intros (i & -> & H). simpl. rewrite H. discriminate. Qed.

Theorem unknown_policy_rejected n : policy_ok PBad n <> None.
Proof. simpl. discriminate. Qed.

(* a machine whose constant in-edge index is out of range crashes in its very first block, before
   any reservation is made (no kernel state other than the crash flag changes) *)
Theorem machine_bad_index_crashes w p i :
  pkd (me w p) = KMachineB -> ppc (me w p) = 0%nat -> wcrash w = None ->
  ninsel (get_node w (pown (me w p))) = PConst i -> in_range i (length (nins (get_node w (pown (me w p))))) = false ->
  wcrash (fst (block w p)) <> None /\ wk (fst (block w p)) = wk w /\ wedges (fst (block w p)) = wedges w.
Proof.
  intros K PC NC S R. unfold block. rewrite K. unfold machine_block. rewrite PC, S. simpl. rewrite R. simpl.
  unfold crashw. rewrite NC. simpl. repeat split; auto. discriminate.
Qed.

(* negative delays are rejected by the kernel model exactly like env.timeout raises ValueError *)
Theorem negative_timeout_rejected w d : d < 0 -> wcrash w = None -> wcrash (fst (w_timeout w d)) <> None.
Proof.
  intros H NC. unfold w_timeout. destruct (Z.ltb_spec d 0); [|lia]. simpl. unfold crashw. rewrite NC. simpl. discriminate.
Qed.
