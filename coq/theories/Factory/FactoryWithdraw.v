(* C10 -- "a node that commits to one edge withdraws its requests on all the others, so no reservation
   is left behind that would permanently occupy space": every node process of the model commits through
   the one helper [cancel_others]; it provably clears every other token it is given, space requests and --
   unless the run crashes -- retrieval requests alike, at every reachable world of every factory (the token
   invariants StoreBTok.TokB / StoreBTokG.TokG are unconditional, so they lift through FactoryQueue.v's
   generic section). *)
From Coq Require Import List Arith Lia.
From RecordUpdate Require Import RecordUpdate.
From FV Require Import ListLemmas Kernel World Factory Frames.
From FV Require FactoryInv FactoryQueue.
From FV Require StoreB StoreBTok StoreBTokG.
Import ListNotations.

(* The space side and the retrieval side are the same argument about a cancellation [cancel] that performs the store
   operation [op t] on one edge, a set of tokens [T] of a store and a store invariant [I] that every operation keeps:
   where [C] holds afterwards the cancelled token is gone ([C]: always on the space side, "the run has not crashed" on
   the retrieval side, where a refused cancellation is an unhandled exception), and a cancellation issues no token. *)
Section Side.
Variables (I : StoreB.store -> Prop) (T : StoreB.store -> nat -> Prop) (op : nat -> StoreB.op)
          (cancel : world -> nat -> nat -> world) (C : world -> Prop).
Hypothesis I_step : forall s o, I s -> I (StoreB.step_st s o).
Hypothesis I_empty : I (est edge0).
Hypothesis cancel_wedges : forall w e t,
  wedges (cancel w e t) = upd e (fun x => x <| est := StoreB.step_st (est (get_edge w e)) (op t) |>) (wedges w).
Hypothesis C_before : forall w e t, C (cancel w e t) -> C w.
Hypothesis absent : forall w e t, I (est (get_edge w e)) -> C (cancel w e t) -> ~ T (StoreB.step_st (est (get_edge w e)) (op t)) t.
Hypothesis none_issued : forall s t t', ~ T s t' -> ~ T (StoreB.step_st s (op t)) t'.

Let Tw (w : world) (e t : nat) : Prop := T (est (get_edge w e)) t.
Let All (w : world) : Prop := Forall (fun ed => I (est ed)) (wedges w).

(* one cancellation: the invariant is kept, the cancelled token is gone from that edge, no token appears anywhere *)
Lemma cancel_spec w e t :
  All w -> (e < length (wedges w))%nat ->
  let w' := cancel w e t in
  All w' /\ length (wedges w') = length (wedges w) /\ (C w' -> ~ Tw w' e t) /\
  (forall e' t', ~ Tw w e' t' -> ~ Tw w' e' t').
Proof.
  intros H L w'. pose proof (cancel_wedges w e t) as EW. fold w' in EW.
  assert (TE : I (est (get_edge w e))) by (apply (proj1 (Forall_forall _ _) H), nth_In, L).
  split; [|split; [|split]].
  - unfold All. rewrite EW. apply upd_forall; [exact H|]. intros x _ _. apply I_step, TE.
  - rewrite EW. apply upd_length.
  - intros NC. unfold Tw, get_edge. rewrite EW, nth_upd_same by exact L. apply absent; [exact TE|exact NC].
  - intros e' t' NP. unfold Tw, get_edge. rewrite EW. destruct (Nat.eq_dec e e') as [<-|NE].
    + rewrite nth_upd_same by exact L. apply none_issued, NP.
    + rewrite nth_upd_other by exact NE. exact NP.
Qed.

Lemma cancel_fold l : forall w keep,
  All w -> (forall e t, In (e, t) l -> (e < length (wedges w))%nat) ->
  let w' := fold_left (fun (w : world) (et : nat * nat) => let '(e, t) := et in
                         if Nat.eqb t keep then w else cancel w e t) l w in
  All w' /\ length (wedges w') = length (wedges w) /\ (C w' -> C w) /\
  (C w' -> forall e t, In (e, t) l -> t <> keep -> ~ Tw w' e t) /\
  (forall e t, ~ Tw w e t -> ~ Tw w' e t).
Proof.
  induction l as [|[e t] l IH]; intros w keep H R; simpl.
  - repeat split; auto; intros _ e t [].
  - destruct (Nat.eqb_spec t keep) as [EQ|NE].
    + destruct (IH w keep H (fun e0 t0 I => R e0 t0 (or_intror I))) as (A & B & B' & D & E).
      repeat split; auto. intros NC e0 t0 [[= <- <-]|K] NK; [contradiction|]. apply D; auto.
    + assert (e < length (wedges w))%nat as L by (apply (R e t); left; reflexivity).
      destruct (cancel_spec w e t H L) as (A1 & B1 & D1 & E1).
      destruct (IH (cancel w e t) keep A1) as (A & B & B' & D & E).
      { intros e0 t0 K. rewrite B1. apply (R e0 t0). right. exact K. }
      repeat split; auto; try lia.
      * intros NC. eapply C_before, B', NC.
      * intros NC e0 t0 [[= <- <-]|K] NK; [apply E, D1, B', NC|]. apply D; auto.
Qed.

(* every configuration whose edges start with the invariant (e.g. empty), every number of kernel steps, every run of the
   commit helper's loop: afterwards, where C holds, none of the other tokens is waiting or granted on its edge, and the
   loop has not put any token anywhere *)
Theorem commit_withdraws nodes edges order n :
  Forall (fun ed => I (est ed)) edges ->
  let w := FactoryInv.iter_fstep n (mk_world nodes edges order) in
  forall es ts keep, (forall e, In e es -> (e < length (wedges w))%nat) ->
    let w' := fold_left (fun (w : world) (et : nat * nat) => let '(e, t) := et in
                           if Nat.eqb t keep then w else cancel w e t) (combine es ts) w in
    (C w' -> forall e t, In (e, t) (combine es ts) -> t <> keep -> ~ Tw w' e t) /\
    (forall e t, ~ Tw w e t -> ~ Tw w' e t).
Proof.
  intros H0 w es ts keep R.
  assert (All w) as HA.
  { apply Forall_forall. intros ed K. apply In_nth_error in K. destruct K as (i & E).
    apply (FactoryQueue.store_invariant_everywhere I I_step I_empty nodes edges order n H0 i ed E). }
  destruct (cancel_fold (combine es ts) w keep HA) as (_ & _ & _ & D & E).
  { intros e t K. apply R. eapply in_combine_l; eauto. }
  split; [exact D|exact E].
Qed.
End Side.

Definition PTw (w : world) (e t : nat) : Prop := StoreBTok.PT (est (get_edge w e)) t.

Lemma cput_none_issued s t t' : ~ StoreBTok.PT s t' -> ~ StoreBTok.PT (StoreB.step_st s (StoreB.CPut t)) t'.
Proof. intros NP K. apply StoreBTok.pt_origin in K. destruct K as [K|K]; [exact (NP K)|exact K]. Qed.

(* every configuration whose edges start with distinct tokens (e.g. empty: StoreBTok.init_tokb), every
   number of kernel steps, every call of the commit helper on the space side: afterwards none of the other
   tokens is waiting or granted on its edge, and the helper has not put any token anywhere *)
Theorem commit_withdraws_other_space_requests nodes edges order n :
  Forall (fun ed => StoreBTok.TokB (est ed)) edges ->
  let w := FactoryInv.iter_fstep n (mk_world nodes edges order) in
  forall es ts keep, (forall e, In e es -> (e < length (wedges w))%nat) ->
    let w' := cancel_others w es ts keep true in
    (forall e t, In (e, t) (combine es ts) -> t <> keep -> ~ PTw w' e t) /\
    (forall e t, ~ PTw w e t -> ~ PTw w' e t).
Proof.
  intros H0 w es ts keep R.
  destruct (commit_withdraws StoreBTok.TokB StoreBTok.PT StoreB.CPut e_cancel_put (fun _ => True) StoreBTok.tokb_step
              (StoreBTok.init_tokb StoreB.KBuffer StoreB.FIFO 0) e_cancel_put_wedges (fun _ _ _ _ => Logic.I)
              (fun w e t TE _ => StoreBTok.cput_absent _ t TE) cput_none_issued nodes edges order n H0 es ts keep R) as (D & E).
  split; [exact (D Logic.I)|exact E].
Qed.

(* ------------------------------------------------------------------ the retrieval side *)
Definition GTw (w : world) (e t : nat) : Prop := StoreBTokG.GT (est (get_edge w e)) t.

Lemma w_succeed_crash w e s : wcrash (w_succeed w e s) = None -> wcrash w = None.
Proof. unfold w_succeed. destruct (succeed _ _); [auto|]. intros H. destruct (crashw_wcrash _ _ H). Qed.
Lemma w_succeed_all_crash ts : forall w, wcrash (w_succeed_all w ts) = None -> wcrash w = None.
Proof. unfold w_succeed_all. induction ts as [|t ts IH]; simpl; auto. intros w H. apply IH in H. eapply w_succeed_crash; eauto. Qed.

Lemma cget_result s t : match snd (fst (StoreB.step s (StoreB.CGet t))) with StoreB.OOk | StoreB.OErr _ => True | _ => False end.
Proof.
  cbn [StoreB.step]. unfold StoreB.after_get.
  destruct (existsb _ _).
  - destruct (StoreB.trig_get _) as [[? ?]|]; exact Logic.I.
  - destruct (index_where _ _); [|exact Logic.I]. destruct (nth_error _ _) as [[? ?]|]; [|exact Logic.I].
    destruct (existsb _ _); [|exact Logic.I]. destruct (StoreB.trig_get _) as [[? ?]|]; exact Logic.I.
Qed.

Lemma e_cancel_get_ok w e t : wcrash (e_cancel_get w e t) = None ->
  wcrash w = None /\ snd (fst (StoreB.step (est (get_edge w e)) (StoreB.CGet t))) = StoreB.OOk.
Proof.
  unfold e_cancel_get, store_op. pose proof (cget_result (est (get_edge w e)) t) as CR.
  destruct (StoreB.step _ _) as [[s' r] ts]. cbn [fst snd] in *. intros H. apply w_succeed_all_crash in H.
  destruct r as [| | |er]; try contradiction.
  - split; [exact H|reflexivity].
  - destruct er; destruct (crashw_wcrash _ _ H).
Qed.

Lemma cancel_get_absent w e t : StoreBTokG.TokG (est (get_edge w e)) -> wcrash (e_cancel_get w e t) = None ->
  ~ StoreBTokG.GT (StoreB.step_st (est (get_edge w e)) (StoreB.CGet t)) t.
Proof.
  intros TE NC. apply e_cancel_get_ok in NC as (_ & OK). unfold StoreB.step_st.
  destruct (StoreB.step _ _) as [[s' r] ts] eqn:E. cbn [fst snd] in *. subst r. eapply StoreBTokG.cget_absent; eauto.
Qed.

Lemma cget_none_issued s t t' : ~ StoreBTokG.GT s t' -> ~ StoreBTokG.GT (StoreB.step_st s (StoreB.CGet t)) t'.
Proof. apply StoreBTokG.gt_not_back. intros p pr. discriminate. Qed.

(* every configuration whose edges start with distinct tokens, every number of kernel steps, every call of the commit
   helper on the retrieval side: unless the run has crashed, afterwards none of the other tokens is waiting or granted on
   its edge, and the helper has not put any token anywhere *)
Theorem commit_withdraws_other_retrieval_requests nodes edges order n :
  Forall (fun ed => StoreBTokG.TokG (est ed)) edges ->
  let w := FactoryInv.iter_fstep n (mk_world nodes edges order) in
  forall es ts keep, (forall e, In e es -> (e < length (wedges w))%nat) ->
    let w' := cancel_others w es ts keep false in
    (wcrash w' = None -> forall e t, In (e, t) (combine es ts) -> t <> keep -> ~ GTw w' e t) /\
    (forall e t, ~ GTw w e t -> ~ GTw w' e t).
Proof.
  exact (commit_withdraws StoreBTokG.TokG StoreBTokG.GT StoreB.CGet e_cancel_get (fun w => wcrash w = None) StoreBTokG.tokg_step
           (StoreBTokG.init_tokg StoreB.KBuffer StoreB.FIFO 0) e_cancel_get_wedges (fun w e t NC => proj1 (e_cancel_get_ok w e t NC))
           cancel_get_absent cget_none_issued nodes edges order n).
Qed.
