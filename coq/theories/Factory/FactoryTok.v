(* Whole-factory lifting of the token-alignment invariant: on every edge the store's token counter never
   runs ahead of the kernel's event counter (StoreB.next (est ed) <= number of kernel events), in every
   reachable world of every configuration.  With it, the Sync step of e_reserve_put / e_reserve_get
   always sets the store's counter to the fresh kernel event, so the token the store grants IS the
   event the requesting process waits on.  Lifted through Steps.v like the other predicates; this one
   relates edges and kernel, so kernel operations need "events are never removed" and store
   operations need "only RPut / RGet / Sync move the token counter" ([step_next] below). *)
From Coq Require Import List ZArith Lia Bool Arith.
From RecordUpdate Require Import RecordUpdate.
From FV Require Import Kernel World Factory Steps.
From FV Require FactoryInv.
From FV Require StoreB StoreBSteps StoreBInv.
Import ListNotations.
Open Scope Z_scope.

(* ---- store level: which operations move the token counter *)
Definition next_after (s : StoreB.store) (o : StoreB.op) : nat :=
  match o with
  | StoreB.RPut _ _ | StoreB.RGet _ _ => S (StoreB.next s)
  | StoreB.Sync n => if (StoreB.next s <=? n)%nat then n else StoreB.next s
  | _ => StoreB.next s
  end.
Lemma trig_put_next s : StoreB.next (fst (StoreB.trig_put s)) = StoreB.next s.
Proof. apply StoreBInv.trig_put_fields. Qed.
Lemma trig_get_next s s' ts : StoreB.trig_get s = Some (s', ts) -> StoreB.next s' = StoreB.next s.
Proof. intros E. apply StoreBInv.trig_get_fields in E. apply E. Qed.
Lemma step_next s o : (StoreB.next (StoreB.step_st s o) <= next_after s o)%nat.
Proof.
  assert (R : (StoreB.next s <= next_after s o)%nat).
  { destruct o; simpl; try lia. destruct (Nat.leb_spec (StoreB.next s) n); lia. }
  apply (StoreBSteps.step_lift (fun s1 => StoreB.next s1 <= next_after s o)%nat); [| |exact R|].
  - intros s1 H. rewrite trig_put_next. exact H.
  - intros s1 s2 ts E H. rewrite (trig_get_next _ _ _ E). exact H.
  - intros s1 r k F. destruct F; try exact R; simpl; try lia.
    destruct (Nat.leb_spec (StoreB.next s) n); lia.
Qed.
Definition quiet_op (o : StoreB.op) : bool :=
  match o with StoreB.RPut _ _ | StoreB.RGet _ _ | StoreB.Sync _ => false | _ => true end.
Lemma step_next_quiet s o : quiet_op o = true -> (StoreB.next (StoreB.step_st s o) <= StoreB.next s)%nat.
Proof. intros Q. pose proof (step_next s o) as H. destruct o; simpl in *; try discriminate; exact H. Qed.

(* ---- kernel level: events are never removed *)
Definition NE (k : kern) : nat := length (evs k).
Lemma schedule_ne k e p d : NE (schedule k e p d) = NE k. Proof. reflexivity. Qed.
Lemma mark_trig_ne k e : NE (mark_trig k e) = NE k. Proof. unfold NE, mark_trig. simpl. apply upd_length. Qed.
Lemma add_cb_ne k e c : NE (add_cb k e c) = NE k. Proof. unfold NE, add_cb. simpl. apply upd_length. Qed.
Lemma new_event_ne k : NE (fst (new_event k)) = S (NE k).
Proof. unfold NE, new_event. simpl. rewrite app_length. simpl. lia. Qed.
Lemma new_event_id k : snd (new_event k) = NE k. Proof. reflexivity. Qed.
(* events are never removed: no kernel operation lowers the count (Kernel.Kept) *)
Section Events.
Variable k : kern.
Let P (x : kern) : Prop := (NE k <= NE x)%nat.
Let always (A : Type) (x : A) : Prop := True.
Let P_new x : P x -> P (fst (new_event x)).
Proof. unfold P. rewrite new_event_ne. lia. Qed.
Let P_add_cb x e c : always cb c -> P x -> P (add_cb x e c).
Proof. unfold P. rewrite add_cb_ne. auto. Qed.
Let P_trigger x e p d : always Z d -> e_trig (get_ev x e) = false -> P x -> P (schedule (mark_trig x e) e p d).
Proof. unfold P. rewrite schedule_ne, mark_trig_ne. auto. Qed.

Lemma succeed_ne e k' : succeed k e = Some k' -> (NE k <= NE k')%nat.
Proof. intros E. exact (kept_succeed P (always Z) I P_trigger _ _ _ E (le_n _)). Qed.
Lemma timeout_ne d : (NE k <= NE (fst (timeout k d)))%nat.
Proof. exact (kept_timeout P (always Z) P_new P_trigger _ d I (le_n _)). Qed.
Lemma check_ne c : (NE k <= NE (check k c))%nat.
Proof. exact (kept_check P (always Z) I P_trigger _ c (le_n _)). Qed.
Lemma any_of_ne es : (NE k <= NE (fst (any_of k es)))%nat.
Proof. exact (kept_any_of P (always Z) (always cb) I (fun _ => I) P_new P_add_cb P_trigger _ es (le_n _)). Qed.
Lemma res_trig_put_ne r k' r' : res_trig_put k r = Some (k', r') -> (NE k <= NE k')%nat.
Proof. intros E. exact (kept_res_trig_put P (always Z) I P_trigger _ _ _ _ E (le_n _)). Qed.
Lemma res_trig_get_ne r k' r' : res_trig_get k r = Some (k', r') -> (NE k <= NE k')%nat.
Proof. intros E. exact (kept_res_trig_get P (always Z) I P_trigger _ _ _ _ E (le_n _)). Qed.
Lemma res_request_ne rid r k' r' q : res_request k rid r = Some (k', r', q) -> (NE k <= NE k')%nat.
Proof. intros E. exact (kept_res_request P (always Z) (always cb) I (fun _ => I) P_new P_add_cb P_trigger _ _ _ _ _ _ E (le_n _)). Qed.
Lemma res_release_ne rid r q k' r' g : res_release k rid r q = Some (k', r', g) -> (NE k <= NE k')%nat.
Proof. intros E. exact (kept_res_release P (always Z) (always cb) I (fun _ => I) P_new P_add_cb P_trigger _ _ _ _ _ _ _ E (le_n _)). Qed.
End Events.
Lemma pop_ne k k' e cbs : pop k = Some (k', e, cbs) -> NE k' = NE k.
Proof. unfold pop. destruct (queue k); [discriminate|]. intros [= <- _ _]. unfold NE. simpl. apply upd_length. Qed.

(* ---- the world predicate *)
Definition EOKn (N : nat) (ed : edge) : Prop := (StoreB.next (est ed) <= N)%nat.
Definition QE (w : world) : Prop := Forall (EOKn (NE (wk w))) (wedges w).
Lemma EOKn_mono N M ed : (N <= M)%nat -> EOKn N ed -> EOKn M ed.
Proof. unfold EOKn. lia. Qed.
Lemma QE_setk w k : (NE (wk w) <= NE k)%nat -> QE w -> QE (w <| wk := k |>).
Proof. unfold QE. cbn [wk wedges set]. simpl. intros L H. eapply Forall_impl; [|exact H]. intros ed. apply EOKn_mono, L. Qed.
Lemma QE_samek w w' : wk w' = wk w -> wedges w' = wedges w -> QE w -> QE w'.
Proof. unfold QE. intros -> ->. auto. Qed.

Create HintDb qdb.
Lemma crashw_q w c : QE w -> QE (crashw w c).
Proof. unfold crashw. destruct (wcrash w); auto. Qed.

Lemma upd_edge_all w e f : (forall x, EOKn (NE (wk w)) x -> EOKn (NE (wk w)) (f x)) -> QE w -> QE (upd_edge w e f).
Proof. unfold QE, upd_edge. intros K H. cbn [wk wedges set]. simpl. apply upd_forall; auto. Qed.
Lemma logw_q w x : QE w -> QE (logw w x).
Proof. auto. Qed.
Lemma upd_node_q w e f : QE w -> QE (upd_node w e f).
Proof. auto. Qed.
Lemma upd_proc_q w e f : QE w -> QE (upd_proc w e f).
Proof. auto. Qed.
Lemma upd_item_q w e f : QE w -> QE (upd_item w e f).
Proof. auto. Qed.
Lemma setpc_q w p pc : QE w -> QE (setpc w p pc).
Proof. auto. Qed.
#[local] Hint Resolve crashw_q logw_q upd_node_q upd_proc_q upd_item_q setpc_q : qdb.
Ltac eok_side :=
  let x := fresh in let Hx := fresh in intros x Hx;
  first [exact Hx
        | repeat (match goal with
                  | |- context [if ?b then _ else _] => destruct b
                  | |- context [match ?b with _ => _ end] => destruct b
                  end); exact Hx].
#[local] Hint Extern 3 (QE (upd_edge _ _ _)) => (apply upd_edge_all; [eok_side|]) : qdb.

Lemma w_succeed_q w e s : QE w -> QE (w_succeed w e s).
Proof.
  unfold w_succeed. intros H. destruct (succeed (wk w) e) eqn:E; [|apply crashw_q; auto].
  apply QE_setk; [exact (succeed_ne _ _ _ E)|exact H].
Qed.
#[local] Hint Resolve w_succeed_q : qdb.

Lemma w_succeed_all_q es : forall w, QE w -> QE (w_succeed_all w es).
Proof. apply succeed_all_lift; eauto using crashw_q, w_succeed_q. Qed.
#[local] Hint Resolve w_succeed_all_q : qdb.

Lemma w_event_q w w1 e : w_event w = (w1, e) -> QE w -> QE w1.
Proof.
  unfold w_event. simpl. intros [= <- _] H. apply QE_setk; [|exact H].
  change (set_evs (wk w) (evs (wk w) ++ [ev0])) with (fst (new_event (wk w))). rewrite new_event_ne. lia.
Qed.

Lemma w_timeout_q w d w1 e : w_timeout w d = (w1, e) -> QE w -> QE w1.
Proof.
  unfold w_timeout. destruct (d <? 0).
  - intros [= <- _] H. auto with qdb.
  - pose proof (timeout_ne (wk w) d) as T. destruct (timeout (wk w) d) as [k e0]. intros [= <- _] H.
    apply QE_setk; [simpl in T; lia|exact H].
Qed.

Lemma w_any_of_q w es w1 c : w_any_of w es = (w1, c) -> QE w -> QE w1.
Proof.
  unfold w_any_of. pose proof (any_of_ne (wk w) es) as T. destruct (any_of (wk w) es) as [k e0]. intros [= <- _] H.
  apply QE_setk; [simpl in T; lia|exact H].
Qed.

Lemma spawn_q w p w1 pid d : spawn w p = (w1, pid, d) -> QE w -> QE w1.
Proof.
  unfold spawn. intros E H.
  destruct (w_event w) as [wa done] eqn:E1. destruct (w_event wa) as [wb ini] eqn:E2.
  inversion E; subst. clear E.
  assert (QE wb) as Hb by (eapply w_event_q; [exact E2|]; eapply w_event_q; [exact E1|]; exact H).
  unfold QE in *. cbn [wk wedges set]. simpl. rewrite schedule_ne, mark_trig_ne, add_cb_ne. exact Hb.
Qed.

Lemma e_update_level_q w e : QE w -> QE (e_update_level w e).
Proof. intros H. unfold e_update_level. apply upd_edge_all; auto. Qed.
#[local] Hint Resolve e_update_level_q : qdb.

(* one store step on edge e, all edges being at level N of the token counter *)
Lemma step_est_level N M w e o s' r ts :
  StoreB.step (est (get_edge w e)) o = (s', r, ts) -> (N <= M)%nat ->
  (forall s, StoreB.next s <= N -> StoreB.next (StoreB.step_st s o) <= M)%nat ->
  Forall (EOKn N) (wedges w) -> Forall (EOKn M) (wedges (upd_edge w e (fun x => x <| est := s' |>))).
Proof.
  intros E L K H. unfold upd_edge. cbn [wedges set]. simpl.
  apply (upd_forall_to (EOKn N) _ _ _ edge0); [intros x; apply EOKn_mono, L| |exact H].
  intros Hx. apply K in Hx. unfold StoreB.step_st, get_edge in *. rewrite E in Hx. exact Hx.
Qed.
Lemma step_est_q w e o s' r ts :
  quiet_op o = true -> StoreB.step (est (get_edge w e)) o = (s', r, ts) -> QE w -> QE (upd_edge w e (fun x => x <| est := s' |>)).
Proof.
  intros Q E H. apply (step_est_level _ _ _ _ _ _ _ _ E (le_n _)); [|exact H].
  intros s Hs. pose proof (step_next_quiet s o Q). lia.
Qed.
Lemma store_op_level N M w e o w1 r ts :
  store_op w e o = (w1, r, ts) -> (N <= M)%nat ->
  (forall s, StoreB.next s <= N -> StoreB.next (StoreB.step_st s o) <= M)%nat ->
  Forall (EOKn N) (wedges w) -> wk w1 = wk w /\ Forall (EOKn M) (wedges w1).
Proof.
  unfold store_op. destruct (StoreB.step _ _) as [[s' r0] ts0] eqn:E. intros [= <- _ _] L K H.
  split; [reflexivity|exact (step_est_level _ _ _ _ _ _ _ _ E L K H)].
Qed.
Lemma store_op_q w e o w1 r ts : store_op w e o = (w1, r, ts) -> quiet_op o = true -> QE w -> QE w1.
Proof. unfold store_op. destruct (StoreB.step _ _) as [[s' r0] ts0] eqn:E. intros [= <- _ _] Q. eapply step_est_q; eauto. Qed.
#[local] Hint Resolve w_event_q store_op_q : qdb.

(* the Sync + RPut / RGet pair: Sync leaves every edge at the number of the fresh kernel event, so the one token
   the request draws stays within the events the kernel now has *)
Lemma reserve_pair_q w e (o : StoreB.op) wa ev wb r1 t1 wc r2 t2 :
  w_event w = (wa, ev) -> store_op wa e (StoreB.Sync ev) = (wb, r1, t1) -> store_op wb e o = (wc, r2, t2) ->
  (forall s, (StoreB.next (StoreB.step_st s o) <= S (StoreB.next s))%nat) ->
  QE w -> QE wc.
Proof.
  intros E1 E2 E3 HO H.
  assert (ev = NE (wk w) /\ NE (wk wa) = S ev /\ wedges wa = wedges w) as (Hev & Hna & Hea).
  { unfold w_event in E1. simpl in E1. inversion E1; subst. repeat split.
    change (set_evs (wk w) (evs (wk w) ++ [ev0])) with (fst (new_event (wk w))). cbn [wk set]. simpl. apply new_event_ne. }
  destruct (store_op_level ev ev _ _ _ _ _ _ E2 (le_n _)) as (K1 & H1); [|rewrite Hea, Hev; exact H|].
  { intros s Hs. pose proof (step_next s (StoreB.Sync ev)) as G. simpl in G. destruct (Nat.leb_spec (StoreB.next s) ev); lia. }
  destruct (store_op_level ev (S ev) _ _ _ _ _ _ E3 (le_S _ _ (le_n _))) as (K2 & H2); [|exact H1|].
  { intros s Hs. pose proof (HO s). lia. }
  unfold QE. rewrite K2, K1, Hna. exact H2.
Qed.

Lemma out_err_q w r s : QE w -> QE (out_err w r s).
Proof. apply out_err_lift; eauto using crashw_q. Qed.
#[local] Hint Resolve out_err_q : qdb.

Lemma e_reserve_put_q w e p w1 t : e_reserve_put w e p = (w1, t) -> QE w -> QE w1.
Proof.
  unfold e_reserve_put. intros E H.
  destruct (w_event w) as [wa ev] eqn:E1. destruct (store_op wa e (StoreB.Sync ev)) as [[wb r1] t1] eqn:E2.
  destruct (store_op wb e (StoreB.RPut p 0)) as [[wc r2] t2] eqn:E3. inversion E; subst.
  apply w_succeed_all_q. eapply reserve_pair_q; [exact E1|exact E2|exact E3| |exact H].
  intros s. apply (step_next s (StoreB.RPut p 0)).
Qed.

Lemma e_reserve_get_q w e p w1 t : e_reserve_get w e p = (w1, t) -> QE w -> QE w1.
Proof.
  unfold e_reserve_get. intros E H.
  destruct (w_event w) as [wa ev] eqn:E1. destruct (store_op wa e (StoreB.Sync ev)) as [[wb r1] t1] eqn:E2.
  destruct (store_op wb e (StoreB.RGet p 0)) as [[wc r2] t2] eqn:E3. inversion E; subst.
  apply w_succeed_all_q. eapply reserve_pair_q; [exact E1|exact E2|exact E3| |exact H].
  intros s. apply (step_next s (StoreB.RGet p 0)).
Qed.

Lemma e_cancel_put_q w e t : QE w -> QE (e_cancel_put w e t).
Proof. eapply cancel_put_lift with (okop := (fun o => quiet_op o = true)); eauto with qdb. Qed.
Lemma e_cancel_get_q w e t : QE w -> QE (e_cancel_get w e t).
Proof. eapply cancel_get_lift with (okop := (fun o => quiet_op o = true)); eauto with qdb. Qed.
#[local] Hint Resolve e_cancel_put_q e_cancel_get_q : qdb.

Lemma fleet_after_put_q w e : QE w -> QE (fleet_after_put w e).
Proof. apply fleet_after_put_lift; eauto using crashw_q, w_succeed_q. Qed.
#[local] Hint Resolve fleet_after_put_q : qdb.

Lemma e_put_q w e p t i : QE w -> QE (e_put w e p t i).
Proof.
  unfold e_put. intros H. destruct (ek (get_edge w e)).
  - destruct (_ <? 0); [auto with qdb|].
    destruct (StoreB.step _ _) as [[s' r] ts] eqn:ES.
    set (w0 := upd_edge w e (fun x => x <| edptr ::= S |>)).
    assert (E0 : est (get_edge w0 e) = est (get_edge w e)) by (apply (nth_upd_kept est); reflexivity).
    rewrite <- E0 in ES. assert (QE w0) as H0 by (unfold w0; auto with qdb).
    pose proof (step_est_q w0 e (StoreB.Put p t i) _ _ _ eq_refl ES H0) as H1.
    destruct r; auto with qdb.
    destruct (spawn _ _) as [[w2 pid] d] eqn:E. apply logw_q, w_succeed_all_q.
    eapply spawn_q; [exact E|]. apply e_update_level_q. exact H1.
  - destruct (StoreB.step _ _) as [[s' r] ts] eqn:ES. pose proof (step_est_q w e (StoreB.Put p t i) _ _ _ eq_refl ES H) as H1.
    destruct r; auto 8 with qdb.
Qed.
#[local] Hint Resolve e_put_q : qdb.

Lemma e_get_q w e p t n w1 r : e_get w e p t n = (w1, r) -> QE w -> QE w1.
Proof.
  unfold e_get. intros E H. destruct (StoreB.step _ _) as [[s' r0] ts] eqn:ES. pose proof (step_est_q w e (StoreB.Get p t) _ _ _ eq_refl ES H) as H1.
  destruct r0 as [?| |?|e0]; try destruct e0; inversion E; subst; auto 10 with qdb.
Qed.

Lemma update_state_q w n s : QE w -> QE (update_state w n s).
Proof. apply update_state_lift. intros w' f _. apply upd_node_q. Qed.
#[local] Hint Resolve update_state_q : qdb.

Lemma cancel_others_qq w es ts keep put : QE w -> QE (cancel_others w es ts keep put).
Proof. apply cancel_others_lift; eauto using e_cancel_put_q, e_cancel_get_q. Qed.
#[local] Hint Resolve cancel_others_qq : qdb.

Lemma set_creation_q w i n : QE w -> QE (set_creation w i n).
Proof. intros H. unfold set_creation. auto 8 with qdb. Qed.
Lemma update_state_rep_q w n : QE w -> QE (update_state_rep w n).
Proof. apply (update_state_rep_lift QE crashw_q). intros w' f _. apply upd_node_q. Qed.
Lemma occupancy_q w n a : QE w -> QE (occupancy w n a).
Proof. intros H. unfold occupancy. auto 8 with qdb. Qed.
Lemma set_thread_q w n p b : QE w -> QE (set_thread w n p b).
Proof. intros H. unfold set_thread. auto 8 with qdb. Qed.
Lemma add_blocked_time_q w p n : QE w -> QE (add_blocked_time w p n).
Proof. intros H. unfold add_blocked_time. auto 8 with qdb. Qed.
#[local] Hint Resolve set_creation_q update_state_rep_q occupancy_q set_thread_q add_blocked_time_q : qdb.

Lemma EOKn_frame N f : edge_frame f -> forall x, EOKn N x -> EOKn N (f x).
Proof. intros F x. unfold EOKn. rewrite (ef_est f F). auto. Qed.
#[local] Hint Resolve w_timeout_q w_any_of_q spawn_q e_reserve_put_q e_reserve_get_q e_get_q EOKn_frame upd_edge_all : qdb.

Lemma step_q kd pc0 p n w w' : step kd pc0 p n w w' -> QE w -> QE w'.
Proof.
  destruct 1; intros HQ; auto 7 with qdb.
  1: { apply upd_node_q, QE_setk; [eapply res_request_ne; eassumption|exact HQ]. }
  1: { apply upd_node_q, QE_setk; [eapply res_release_ne; eassumption|exact HQ]. }
  all: eauto 7 with qdb.
Qed.
Lemma discard_q n w1 w t i : QE w1 -> nblocking (get_node w1 n) = false -> QE w -> t = wnow w -> QE (discard w n t i).
Proof. intros _ _ H _. exact H. Qed.

Lemma sub_q kd pc0 p n w w' : (reach kd pc0 p n w w -> reach kd pc0 p n w w') -> QE w -> QE w'.
Proof. apply (sub_lift QE step_q discard_q). Qed.

Lemma source_loop_q w p n : QE w -> QE (fst (source_loop w p n)).
Proof. apply (sub_q KSourceB 0 p n), source_loop_r. Qed.
Lemma sink_loop_q w p n : QE w -> QE (fst (sink_loop w p n)).
Proof. apply (sub_q KSinkB 0 p n), sink_loop_r. Qed.
Lemma machine_request_q w p n : QE w -> QE (fst (machine_request w p n)).
Proof. apply (sub_q KMachineB 0 p n), machine_request_r. Qed.
Lemma machine_start_worker_q w p n i : QE w -> QE (fst (machine_start_worker w p n i)).
Proof. apply (sub_q KMachineB 0 p n), machine_start_worker_r. Qed.
Lemma worker_release_q w p n : QE w -> QE (fst (worker_release w p n)).
Proof. apply (sub_q KWorker 0 p n), worker_release_r. Qed.
Lemma check_state_q w n : QE w -> QE (check_state w n).
Proof. apply (sub_q KSplitWorker 0 0 n), check_state_r. exact I. Qed.
Lemma sc_request_q w p n pc : QE w -> QE (fst (sc_request w p n pc)).
Proof. apply (sub_q KSplitWorker 0 p n), sc_request_r. auto. Qed.
Lemma sc_release_q w p n : QE w -> QE (fst (sc_release w p n)).
Proof. apply (sub_q KSplitWorker 0 p n), sc_release_r. left; reflexivity. Qed.
Lemma sc_dispatch_q w p n c ph : QE w -> QE (fst (sc_dispatch w p n c ph)).
Proof. apply (sub_q KSplitWorker 0 p n), sc_dispatch_r. left; reflexivity. Qed.
Lemma sc_next_q w p n : QE w -> QE (fst (sc_next w p n)).
Proof. apply (sub_q KSplitWorker 0 p n), sc_next_r. left; reflexivity. Qed.
Lemma sc_worker_cont_q w p n : QE w -> QE (fst (sc_worker_cont w p n)).
Proof. apply (sub_q KSplitWorker 0 p n), sc_worker_cont_r. left; reflexivity. Qed.
Lemma splitter_head_q w p n : QE w -> QE (fst (splitter_head w p n)).
Proof. apply (sub_q KSplitterB 0 p n), splitter_head_r. Qed.
Lemma splitter_start_q w p n pal : QE w -> QE (fst (splitter_start w p n pal)).
Proof. apply (sub_q KSplitterB 0 p n), splitter_start_r. Qed.
Lemma combiner_head_q w p n : QE w -> QE (fst (combiner_head w p n)).
Proof. apply (sub_q KCombinerB 0 p n), combiner_head_r. Qed.
Lemma combiner_loop_q w p n : QE w -> QE (fst (combiner_loop w p n)).
Proof. apply (sub_q KCombinerB 0 p n), combiner_loop_r. Qed.

Lemma run_cbs_q l : forall w, QE w -> QE (fold_left run_cb l w).
Proof.
  apply (run_cbs_lift QE step_q discard_q); auto with qdb.
  - intros w e p H. apply QE_setk; [rewrite add_cb_ne; lia|exact H].
  - intros w p d H. apply upd_proc_q, QE_setk; [rewrite schedule_ne, mark_trig_ne; lia|exact H].
  - intros w c H. apply QE_setk; [apply check_ne|exact H].
  - intros w n k r E H. apply upd_node_q, QE_setk; [exact (res_trig_get_ne _ _ _ _ E)|exact H].
  - intros w n k r E H. apply upd_node_q, QE_setk; [exact (res_trig_put_ne _ _ _ _ E)|exact H].
Qed.

Lemma pop_q w k e cbs : pop (wk w) = Some (k, e, cbs) -> QE w -> QE (w <| wk := k |>).
Proof. intros E H. apply QE_setk; [rewrite (pop_ne _ _ _ _ E); lia|exact H]. Qed.
Theorem fstep_q w w' : QE w -> fstep w = Some w' -> QE w'.
Proof. apply (FactoryInv.fstep_lift QE pop_q run_cbs_q). Qed.

Lemma mk_world_q nodes edges order : Forall (EOKn 0) edges -> QE (mk_world nodes edges order).
Proof.
  intros H0. apply (FactoryInv.mk_steps_lift QE); eauto with qdb.
Qed.

(* every configuration whose edges start with a fresh token counter (StoreB.init), every number of
   kernel steps: on every edge the store's token counter is at most the number of kernel events *)
Theorem tokens_aligned_everywhere nodes edges order n :
  Forall (fun ed => StoreB.next (est ed) = 0%nat) edges ->
  let w := FactoryInv.iter_fstep n (mk_world nodes edges order) in
  forall i ed, nth_error (wedges w) i = Some ed -> (StoreB.next (est ed) <= length (evs (wk w)))%nat.
Proof.
  intros H0 w.
  pose proof (FactoryInv.iter_fstep_lift QE pop_q run_cbs_q) as G.
  assert (QE (mk_world nodes edges order)) as K0.
  { apply mk_world_q. eapply Forall_impl; [|exact H0]. intros ed E. cbv beta in E. unfold EOKn. rewrite E. apply Nat.le_refl. }
  intros i ed E. pose proof (G n _ K0) as K. fold w in K.
  eapply Forall_forall in K; [exact K|]. eapply nth_error_In; eauto.
Qed.

(* consequence: the reservation a process issues is answered with the kernel event it then waits on.
   [e_reserve_put] returns the fresh event ev; after the Sync step the store's counter is ev, so the
   token of the RPut request -- the only token the store can grant "at once" for it -- is ev *)
Lemma sync_sets_next s ev : (StoreB.next s <= ev)%nat -> StoreB.next (StoreB.step_st s (StoreB.Sync ev)) = ev.
Proof. intros L. unfold StoreB.step_st. simpl. destruct (Nat.leb_spec (StoreB.next s) ev); simpl; lia. Qed.
