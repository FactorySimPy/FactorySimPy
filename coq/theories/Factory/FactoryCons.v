(* Whole-factory invariant for C03 (conservation inside edges): in every reachable, un-crashed world of
   every configuration, the items inside an edge are exactly the items that the trace says were put on
   it and not yet taken from it (as multisets).  No item appears in or vanishes from an edge.
   The predicate survives every operation of the world; Steps.v and FactoryInv.v lift that to every run. *)
From Coq Require Import List ZArith Lia Bool Arith Permutation.
From RecordUpdate Require Import RecordUpdate.
From FV Require Import ListLemmas Kernel World Factory Steps.
From FV Require FactoryInv.
From FV Require StoreB StoreBSteps StoreBInv.
Import ListNotations.
Open Scope Z_scope.

Definition cont (s : StoreB.store) : list nat := StoreB.transit s ++ StoreB.ready s.

(* what the trace says is inside edge e: every put adds the item, every get removes it *)
Definition tr_step (e : nat) (acc : list nat) (x : tev) : list nat :=
  match x with
  | LPut _ e' i => if Nat.eqb e' e then acc ++ [i] else acc
  | LGet _ e' i _ => if Nat.eqb e' e then remove_first (Nat.eqb i) acc else acc
  | _ => acc
  end.
Definition inside (e : nat) (log : list tev) : list nat := fold_left (tr_step e) log [].

Definition moves (x : tev) : bool := match x with LPut _ _ _ | LGet _ _ _ _ => true | _ => false end.

Lemma inside_snoc e log x : inside e (log ++ [x]) = tr_step e (inside e log) x.
Proof. unfold inside. rewrite fold_left_app. reflexivity. Qed.
Lemma inside_quiet e log x : moves x = false -> inside e (log ++ [x]) = inside e log.
Proof. intros H. rewrite inside_snoc. destruct x; try discriminate; reflexivity. Qed.

Lemma perm_remove_first (i : nat) l : In i l -> Permutation l (i :: remove_first (Nat.eqb i) l).
Proof.
  induction l as [|x l IH]; [intros []|]. simpl. destruct (Nat.eqb_spec i x) as [->|NE].
  - intros _. reflexivity.
  - intros [E|H]; [congruence|]. eapply perm_trans; [|apply perm_swap]. constructor. apply IH, H.
Qed.

(* ------------------------------------------------------------------ contents of a store under its operations *)
Definition neutral (o : StoreB.op) : bool :=
  match o with StoreB.Put _ _ _ | StoreB.Get _ _ | StoreB.Ready _ => false | _ => true end.

Lemma tp_cont s : cont (fst (StoreB.trig_put s)) = cont s.
Proof. destruct (StoreBInv.trig_put_fields s) as (_ & A & B & _). unfold cont. rewrite A, B. reflexivity. Qed.
Lemma tg_cont s s' ts : StoreB.trig_get s = Some (s', ts) -> cont s' = cont s.
Proof. intros E. destruct (StoreBInv.trig_get_fields _ _ _ E) as (_ & A & B & _). unfold cont. rewrite A, B. reflexivity. Qed.
(* the trigger loops keep the contents, so after a step the contents are those of the operation's own update *)
Lemma trigs_cont k s1 s' : StoreBSteps.trigs k s1 s' -> cont s' = cont s1.
Proof.
  intros T. symmetry. refine (StoreBSteps.trigs_lift (fun x => cont s1 = cont x) _ _ k s1 s' T eq_refl).
  - intros x E. rewrite tp_cont. exact E.
  - intros x y ts E H. rewrite (tg_cont _ _ _ E). exact H.
Qed.
Lemma step_cont s o s' r ts : StoreB.step s o = (s', r, ts) ->
  (s' = s /\ exists e, r = StoreB.OErr e) \/ exists s1 k, StoreBSteps.effect s o s1 r k /\ cont s' = cont s1.
Proof.
  intros E. pose proof (StoreBSteps.step_shape s o) as S. rewrite E in S. inversion S; subst.
  - left. eauto.
  - right. eauto using trigs_cont.
Qed.

Lemma neutral_cont s o s' r ts : neutral o = true -> StoreB.step s o = (s', r, ts) -> cont s' = cont s.
Proof.
  intros N E. destruct (step_cont _ _ _ _ _ E) as [(-> & _)|(s1 & k & F & ->)]; [reflexivity|].
  destruct F; try discriminate; reflexivity.
Qed.

Lemma put_res s p t i s' r ts : StoreB.step s (StoreB.Put p t i) = (s', r, ts) -> r = StoreB.OOk \/ exists e, r = StoreB.OErr e.
Proof.
  intros E. destruct (step_cont _ _ _ _ _ E) as [(_ & e & ->)|(s1 & k & F & _)]; [eauto|]. inversion F; subst; eauto.
Qed.
Lemma put_cont s p t i s' r ts : StoreB.step s (StoreB.Put p t i) = (s', r, ts) ->
  (r = StoreB.OOk -> Permutation (cont s') (cont s ++ [i])) /\ (r <> StoreB.OOk -> cont s' = cont s).
Proof.
  intros E. destruct (step_cont _ _ _ _ _ E) as [(-> & e & ->)|(s1 & k & F & ->)]; [split; [discriminate|reflexivity]|].
  inversion F; subst; split; intros N; try congruence; [|reflexivity].
  unfold cont. cbn. rewrite <- !app_assoc. apply Permutation_app_head, Permutation_app_comm.
Qed.

Lemma get_cont s p t s' r ts : StoreB.step s (StoreB.Get p t) = (s', r, ts) ->
  match r with StoreB.OItem it => Permutation (cont s) (it :: cont s') | _ => s' = s end.
Proof.
  intros E. destruct (step_cont _ _ _ _ _ E) as [(-> & e & ->)|(s1 & k & F & EC)]; [reflexivity|].
  inversion F; subst. rewrite EC. unfold cont. cbn.
  apply existsb_exists in RDY. destruct RDY as (y & Hy & Ey). apply Nat.eqb_eq in Ey. subst y.
  rewrite (perm_remove_first it (StoreB.ready s) Hy) at 1. apply Permutation_sym, Permutation_middle.
Qed.

Lemma ready_cont s i s' r ts : StoreB.step s (StoreB.Ready i) = (s', r, ts) ->
  match r with StoreB.OOk => Permutation (cont s') (cont s) | StoreB.OErr _ => True | _ => False end.
Proof.
  intros E. destruct (step_cont _ _ _ _ _ E) as [(-> & e & ->)|(s1 & k & F & EC)]; [exact I|].
  inversion F; subst; [|exact I]. rewrite EC. unfold cont. cbn.
  apply existsb_exists in INT. destruct INT as (y & Hy & Ey). apply Nat.eqb_eq in Ey. subst y.
  rewrite (perm_remove_first i (StoreB.transit s) Hy) at 2. simpl.
  rewrite app_assoc. rewrite <- Permutation_middle. rewrite app_nil_r. constructor. reflexivity.
Qed.

(* ------------------------------------------------------------------ the invariant, with a pending suffix of the trace *)
Definition PCx (extra : list tev) (w : world) : Prop :=
  wcrash w = None -> forall e, (e < length (wedges w))%nat ->
    Permutation (inside e (wlog w ++ extra)) (cont (est (get_edge w e))).
Definition PC : world -> Prop := PCx [].

Lemma est_get_upd w e f e' : (forall x, est (f x) = est x) -> est (get_edge (upd_edge w e f) e') = est (get_edge w e').
Proof. intros K. apply (nth_upd_kept est), K. Qed.
Lemma get_upd_edge w e f e' : (e' < length (wedges w))%nat ->
  get_edge (upd_edge w e f) e' = if Nat.eqb e e' then f (get_edge w e') else get_edge w e'.
Proof.
  intros L. unfold get_edge, upd_edge. cbn [wedges set]. simpl.
  destruct (Nat.eqb_spec e e') as [->|NE]; [apply nth_upd_same, L|apply nth_upd_other, NE].
Qed.

Lemma inside_mid_quiet e l1 x l2 : moves x = false -> inside e ((l1 ++ [x]) ++ l2) = inside e (l1 ++ l2).
Proof.
  intros H. unfold inside. rewrite !fold_left_app. f_equal. simpl. destruct x; try discriminate; reflexivity.
Qed.

Section Frame.
Variable extra : list tev.

Lemma crashw_x w c : PCx extra (crashw w c).
Proof. unfold PCx, crashw. destruct (wcrash w) eqn:E; [rewrite E; discriminate|]. cbn. discriminate. Qed.

(* An update of edge e, with the pending suffix going from [extra] to [extra']: the other edges see neither (the
   entries that differ are movements on e), so the predicate is to be shown at e only. *)
Lemma edge_site extra' w e f :
  (forall e' acc, e' <> e -> fold_left (tr_step e') extra' acc = fold_left (tr_step e') extra acc) ->
  (wcrash w = None -> Permutation (inside e (wlog w ++ extra)) (cont (est (get_edge w e))) ->
   Permutation (inside e (wlog w ++ extra')) (cont (est (f (get_edge w e))))) ->
  PCx extra w -> PCx extra' (upd_edge w e f).
Proof.
  intros O K H C e' L. unfold upd_edge in L. cbn [wedges set] in L. simpl in L. rewrite upd_length in L.
  rewrite get_upd_edge by exact L. change (wlog (upd_edge w e f)) with (wlog w). specialize (H C e' L).
  destruct (Nat.eqb_spec e e') as [<-|NE]; [exact (K C H)|].
  unfold inside in *. rewrite fold_left_app in *. rewrite O by auto. exact H.
Qed.

Lemma upd_edge_keep_x w e f : (forall x, est (f x) = est x) -> PCx extra w -> PCx extra (upd_edge w e f).
Proof. intros K. apply edge_site; [reflexivity|]. intros _ P. rewrite K. exact P. Qed.

Lemma set_est_x w e s' : PCx extra w -> (wcrash w = None -> Permutation (cont s') (cont (est (get_edge w e)))) ->
  PCx extra (upd_edge w e (fun x => x <| est := s' |>)).
Proof. intros H K. revert H. apply edge_site; [reflexivity|]. intros C P. cbn. rewrite (K C). exact P. Qed.

Lemma logw_quiet_x w x : moves x = false -> PCx extra w -> PCx extra (logw w x).
Proof. intros Q H C e L. unfold logw. cbn [wlog wedges set]. simpl. rewrite inside_mid_quiet by exact Q. apply (H C e L). Qed.

Lemma w_succeed_x w e s : PCx extra w -> PCx extra (w_succeed w e s).
Proof. unfold w_succeed. intros H. destruct (succeed (wk w) e) eqn:E; [exact H|apply crashw_x]. Qed.
Lemma w_succeed_all_x es : forall w, PCx extra w -> PCx extra (w_succeed_all w es).
Proof. apply succeed_all_lift; auto using crashw_x, w_succeed_x. Qed.
Lemma w_event_x w w1 e : w_event w = (w1, e) -> PCx extra w -> PCx extra w1.
Proof. unfold w_event. simpl. intros [= <- _] H. exact H. Qed.
Lemma spawn_x w p w1 pid d : spawn w p = (w1, pid, d) -> PCx extra w -> PCx extra w1.
Proof.
  unfold spawn. intros E H.
  destruct (w_event w) as [wa done] eqn:E1. destruct (w_event wa) as [wb ini] eqn:E2.
  inversion E; subst. clear E.
  assert (PCx extra wb) as Hb by (eapply w_event_x; [exact E2|]; eapply w_event_x; [exact E1|]; exact H). exact Hb.
Qed.
Lemma e_update_level_x w e : PCx extra w -> PCx extra (e_update_level w e).
Proof. intros H. unfold e_update_level. apply upd_edge_keep_x; auto. Qed.
Lemma fleet_after_put_x w e : PCx extra w -> PCx extra (fleet_after_put w e).
Proof. apply fleet_after_put_lift; auto using crashw_x, w_succeed_x. Qed.
End Frame.

(* closing a pending trace entry *)
Lemma logw_close w x : PCx [x] w -> PC (logw w x).
Proof. intros H C e L. unfold logw. cbn [wlog wedges set]. simpl. rewrite app_nil_r. apply (H C e L). Qed.

Lemma other_edge e e' (acc : list nat) (b : list nat) : e' <> e -> (if Nat.eqb e e' then b else acc) = acc.
Proof. intros NE. destruct (Nat.eqb_spec e e'); congruence. Qed.

(* an accepted put: the store of edge e gains the item, the trace entry is pending *)
Lemma put_site w e s' p t i ts tm :
  PC w -> StoreB.step (est (get_edge w e)) (StoreB.Put p t i) = (s', StoreB.OOk, ts) ->
  PCx [LPut tm e i] (upd_edge w e (fun x => x <| est := s' |>)).
Proof.
  intros H ES. destruct (put_cont _ _ _ _ _ _ _ ES) as (P & _). revert H. apply edge_site.
  - intros e' acc. apply other_edge.
  - intros _ H. rewrite app_nil_r in H. rewrite inside_snoc. simpl. rewrite Nat.eqb_refl, (P eq_refl).
    apply Permutation_app_tail, H.
Qed.

(* a served get: the store loses the item, the trace entry is pending *)
Lemma get_site w e s' p t it ts tm n :
  PC w -> StoreB.step (est (get_edge w e)) (StoreB.Get p t) = (s', StoreB.OItem it, ts) ->
  PCx [LGet tm e it n] (upd_edge w e (fun x => x <| est := s' |>)).
Proof.
  intros H ES. pose proof (get_cont _ _ _ _ _ _ ES) as P. simpl in P. revert H. apply edge_site.
  - intros e' acc. apply other_edge.
  - intros _ H. rewrite app_nil_r in H. rewrite inside_snoc. simpl. rewrite Nat.eqb_refl.
    assert (Permutation (inside e (wlog w)) (it :: cont s')) as Q by (rewrite H; exact P).
    assert (In it (inside e (wlog w))) as Hin by (eapply Permutation_in; [apply Permutation_sym; exact Q|left; reflexivity]).
    rewrite (perm_remove_first it _ Hin) in Q. apply Permutation_cons_inv in Q. exact Q.
Qed.

(* ------------------------------------------------------------------ the primitives at an empty pending suffix *)
Create HintDb pdb.
Lemma crashw_p w c : PC (crashw w c).
Proof. apply crashw_x. Qed.
Lemma upd_node_p w e f : PC w -> PC (upd_node w e f).
Proof. auto. Qed.
Lemma upd_proc_p w e f : PC w -> PC (upd_proc w e f).
Proof. auto. Qed.
Lemma upd_item_p w e f : PC w -> PC (upd_item w e f).
Proof. auto. Qed.
Lemma setpc_p w p pc : PC w -> PC (setpc w p pc).
Proof. auto. Qed.
#[local] Hint Resolve crashw_p upd_node_p upd_proc_p upd_item_p setpc_p : pdb.
(* a trace entry that moves nothing *)
Lemma logw_p w x : moves x = false -> PC w -> PC (logw w x).
Proof. apply logw_quiet_x. Qed.
#[local] Hint Extern 2 (PC (logw _ _)) => (apply logw_p; [reflexivity|]) : pdb.
(* an edge update that leaves the store alone *)
Ltac est_side :=
  let x := fresh in intros x;
  first [reflexivity
        | repeat (match goal with
                  | |- context [if ?b then _ else _] => destruct b
                  | |- context [match ?b with _ => _ end] => destruct b
                  end); reflexivity].
Lemma upd_edge_keep_p w e f : (forall x, est (f x) = est x) -> PC w -> PC (upd_edge w e f).
Proof. apply upd_edge_keep_x. Qed.
#[local] Hint Extern 3 (PC (upd_edge _ _ _)) => (apply upd_edge_keep_p; [est_side|]) : pdb.

Lemma w_succeed_p w e s : PC w -> PC (w_succeed w e s).
Proof. apply w_succeed_x. Qed.
#[local] Hint Resolve w_succeed_p : pdb.

Lemma w_succeed_all_p es : forall w, PC w -> PC (w_succeed_all w es).
Proof. apply succeed_all_lift; eauto using crashw_p, w_succeed_p. Qed.
#[local] Hint Resolve w_succeed_all_p : pdb.

Lemma w_event_p w w1 e : w_event w = (w1, e) -> PC w -> PC w1.
Proof. apply w_event_x. Qed.

Lemma w_timeout_p w d w1 e : w_timeout w d = (w1, e) -> PC w -> PC w1.
Proof.
  unfold w_timeout. destruct (d <? 0).
  - intros [= <- _] H. auto with pdb.
  - destruct (timeout (wk w) d) as [k e0]. intros [= <- _] H. exact H.
Qed.

Lemma w_any_of_p w es w1 c : w_any_of w es = (w1, c) -> PC w -> PC w1.
Proof.
  unfold w_any_of. destruct (any_of (wk w) es) as [k e0]. intros [= <- _] H. exact H.
Qed.

Lemma spawn_p w p w1 pid d : spawn w p = (w1, pid, d) -> PC w -> PC w1.
Proof. apply spawn_x. Qed.

Lemma e_update_level_p w e : PC w -> PC (e_update_level w e).
Proof. apply e_update_level_x. Qed.

Lemma out_err_crash w e s : PC (out_err w (StoreB.OErr e) s).
Proof. unfold out_err. destruct e; apply crashw_x. Qed.

Lemma store_op_p w e o w1 r ts : store_op w e o = (w1, r, ts) -> neutral o = true -> PC w -> PC w1.
Proof.
  unfold store_op. destruct (StoreB.step _ _) as [[s' r0] ts0] eqn:E. intros [= <- _ _] N H.
  apply set_est_x; auto. intros _. rewrite (neutral_cont _ _ _ _ _ N E). reflexivity.
Qed.
#[local] Hint Resolve w_event_p store_op_p : pdb.

Lemma out_err_p w r s : PC w -> PC (out_err w r s).
Proof. apply out_err_lift; eauto using crashw_p. Qed.
#[local] Hint Resolve out_err_p : pdb.

Lemma e_reserve_put_p w e p w1 t : e_reserve_put w e p = (w1, t) -> PC w -> PC w1.
Proof. eapply reserve_put_lift with (okop := (fun o => neutral o = true)); eauto with pdb. Qed.

Lemma e_reserve_get_p w e p w1 t : e_reserve_get w e p = (w1, t) -> PC w -> PC w1.
Proof. eapply reserve_get_lift with (okop := (fun o => neutral o = true)); eauto with pdb. Qed.

Lemma e_cancel_put_p w e t : PC w -> PC (e_cancel_put w e t).
Proof. eapply cancel_put_lift with (okop := (fun o => neutral o = true)); eauto with pdb. Qed.
Lemma e_cancel_get_p w e t : PC w -> PC (e_cancel_get w e t).
Proof. eapply cancel_get_lift with (okop := (fun o => neutral o = true)); eauto with pdb. Qed.
#[local] Hint Resolve e_cancel_put_p e_cancel_get_p : pdb.

Lemma fleet_after_put_p w e : PC w -> PC (fleet_after_put w e).
Proof. apply fleet_after_put_lift; eauto using crashw_p, w_succeed_p. Qed.
#[local] Hint Resolve fleet_after_put_p : pdb.

Lemma e_put_p w e p t i : PC w -> PC (e_put w e p t i).
Proof.
  unfold e_put. intros H. destruct (ek (get_edge w e)).
  - destruct (_ <? 0); [apply crashw_x|].
    destruct (StoreB.step _ _) as [[s' r] ts] eqn:ES. destruct (put_res _ _ _ _ _ _ _ ES) as [->|(er & ->)].
    + destruct (spawn _ _) as [[w2 pid] d] eqn:E. apply logw_close, w_succeed_all_x.
      eapply spawn_x; [exact E|]. apply e_update_level_x.
      eapply put_site; [apply upd_edge_keep_x; auto|]. rewrite est_get_upd by reflexivity. exact ES.
    + apply out_err_crash.
  - destruct (StoreB.step _ _) as [[s' r] ts] eqn:ES. destruct (put_res _ _ _ _ _ _ _ ES) as [->|(er & ->)].
    + apply logw_close, fleet_after_put_x, w_succeed_all_x, e_update_level_x. eapply put_site; [exact H|exact ES].
    + apply out_err_crash.
Qed.
#[local] Hint Resolve e_put_p : pdb.

Lemma e_get_p w e p t n w1 r : e_get w e p t n = (w1, r) -> PC w -> PC w1.
Proof.
  unfold e_get. intros E H. destruct (StoreB.step _ _) as [[s' r0] ts] eqn:ES. pose proof (get_cont _ _ _ _ _ _ ES) as G.
  destruct r0 as [?| |?|e0]; inversion E; subst; clear E.
  - simpl. apply set_est_x; auto.
  - simpl. apply set_est_x; auto.
  - apply logw_close, w_succeed_all_x, e_update_level_x. eapply get_site; eauto.
  - apply out_err_crash.
Qed.

Lemma update_state_p w n s : PC w -> PC (update_state w n s).
Proof. apply update_state_lift. intros w' f _. apply upd_node_p. Qed.
#[local] Hint Resolve update_state_p : pdb.

Lemma cancel_others_pp w es ts keep put : PC w -> PC (cancel_others w es ts keep put).
Proof. apply cancel_others_lift; eauto using e_cancel_put_p, e_cancel_get_p. Qed.
#[local] Hint Resolve cancel_others_pp : pdb.

Lemma set_creation_p w i n : PC w -> PC (set_creation w i n).
Proof. intros H. unfold set_creation. auto 8 with pdb. Qed.
Lemma update_state_rep_p w n : PC w -> PC (update_state_rep w n).
Proof. apply (update_state_rep_lift PC (fun w c _ => crashw_p w c)). intros w' f _. apply upd_node_p. Qed.
Lemma occupancy_p w n a : PC w -> PC (occupancy w n a).
Proof. intros H. unfold occupancy. auto 8 with pdb. Qed.
Lemma set_thread_p w n p b : PC w -> PC (set_thread w n p b).
Proof. intros H. unfold set_thread. auto 8 with pdb. Qed.
Lemma add_blocked_time_p w p n : PC w -> PC (add_blocked_time w p n).
Proof. intros H. unfold add_blocked_time. auto 8 with pdb. Qed.
#[local] Hint Resolve set_creation_p update_state_rep_p occupancy_p set_thread_p add_blocked_time_p : pdb.

Lemma ready_op_p w e i w1 r ts :
  PC w -> store_op w e (StoreB.Ready i) = (w1, r, ts) -> r = StoreB.OOk /\ PC w1 \/ exists e0, r = StoreB.OErr e0.
Proof.
  intros H. unfold store_op. destruct (StoreB.step _ _) as [[s' r0] ts0] eqn:ES. intros [= <- <- _].
  pose proof (ready_cont _ _ _ _ _ ES) as K. destruct r0 as [?| |?|e0]; try (destruct K; fail); [left|right; eauto].
  split; [reflexivity|]. apply set_est_x; auto.
Qed.

Lemma neutral_moves t x : neutral_entry t x -> moves x = false.
Proof. destruct x; simpl; intros H; auto; contradiction. Qed.
#[local] Hint Resolve w_timeout_p w_any_of_p spawn_p e_reserve_put_p e_reserve_get_p e_get_p : pdb.

Lemma step_p kd pc0 p n w w' : step kd pc0 p n w w' -> PC w -> PC w'.
Proof.
  destruct 1; intros HP; auto 7 with pdb.
  1: { eapply logw_p; [eapply neutral_moves; eassumption|exact HP]. }
  1: { apply upd_edge_keep_p; [apply ef_est; assumption|exact HP]. }
  (* S_ready and S_fleet_ready, after the seven operations that hand back the new world in an equation *)
  8: { apply w_succeed_all_p. destruct (ready_op_p _ _ _ _ _ _ HP H) as [(-> & H1)|(e0 & ->)]; [exact H1|apply out_err_crash]. }
  8: { apply w_succeed_all_p. destruct (ready_op_p _ _ _ _ _ _ HP H0) as [(-> & H1)|(e0 & ->)]; [|apply out_err_crash].
       apply upd_edge_keep_p; [apply ef_est; assumption|exact H1]. }
  all: eauto 7 with pdb.
Qed.
Lemma discard_p n w1 w t i : PC w1 -> nblocking (get_node w1 n) = false -> PC w -> t = wnow w -> PC (discard w n t i).
Proof. intros _ _ H _. unfold discard. auto with pdb. Qed.

Lemma sub_p kd pc0 p n w w' : (reach kd pc0 p n w w -> reach kd pc0 p n w w') -> PC w -> PC w'.
Proof. apply (sub_lift PC step_p discard_p). Qed.

Lemma source_loop_p w p n : PC w -> PC (fst (source_loop w p n)).
Proof. apply (sub_p KSourceB 0 p n), source_loop_r. Qed.
Lemma sink_loop_p w p n : PC w -> PC (fst (sink_loop w p n)).
Proof. apply (sub_p KSinkB 0 p n), sink_loop_r. Qed.
Lemma machine_request_p w p n : PC w -> PC (fst (machine_request w p n)).
Proof. apply (sub_p KMachineB 0 p n), machine_request_r. Qed.
Lemma machine_start_worker_p w p n i : PC w -> PC (fst (machine_start_worker w p n i)).
Proof. apply (sub_p KMachineB 0 p n), machine_start_worker_r. Qed.
Lemma worker_release_p w p n : PC w -> PC (fst (worker_release w p n)).
Proof. apply (sub_p KWorker 0 p n), worker_release_r. Qed.
Lemma check_state_p w n : PC w -> PC (check_state w n).
Proof. apply (sub_p KSplitWorker 0 0 n), check_state_r. exact I. Qed.
Lemma sc_request_p w p n pc : PC w -> PC (fst (sc_request w p n pc)).
Proof. apply (sub_p KSplitWorker 0 p n), sc_request_r. auto. Qed.
Lemma sc_release_p w p n : PC w -> PC (fst (sc_release w p n)).
Proof. apply (sub_p KSplitWorker 0 p n), sc_release_r. left; reflexivity. Qed.
Lemma sc_dispatch_p w p n c ph : PC w -> PC (fst (sc_dispatch w p n c ph)).
Proof. apply (sub_p KSplitWorker 0 p n), sc_dispatch_r. left; reflexivity. Qed.
Lemma sc_next_p w p n : PC w -> PC (fst (sc_next w p n)).
Proof. apply (sub_p KSplitWorker 0 p n), sc_next_r. left; reflexivity. Qed.
Lemma sc_worker_cont_p w p n : PC w -> PC (fst (sc_worker_cont w p n)).
Proof. apply (sub_p KSplitWorker 0 p n), sc_worker_cont_r. left; reflexivity. Qed.
Lemma splitter_head_p w p n : PC w -> PC (fst (splitter_head w p n)).
Proof. apply (sub_p KSplitterB 0 p n), splitter_head_r. Qed.
Lemma splitter_start_p w p n pal : PC w -> PC (fst (splitter_start w p n pal)).
Proof. apply (sub_p KSplitterB 0 p n), splitter_start_r. Qed.
Lemma combiner_head_p w p n : PC w -> PC (fst (combiner_head w p n)).
Proof. apply (sub_p KCombinerB 0 p n), combiner_head_r. Qed.
Lemma combiner_loop_p w p n : PC w -> PC (fst (combiner_loop w p n)).
Proof. apply (sub_p KCombinerB 0 p n), combiner_loop_r. Qed.

Lemma run_cbs_p l : forall w, PC w -> PC (fold_left run_cb l w).
Proof. apply (run_cbs_lift PC step_p discard_p); auto with pdb; intros w n k r E H; apply upd_node_p; exact H. Qed.

Theorem fstep_p w w' : PC w -> fstep w = Some w' -> PC w'.
Proof. apply (FactoryInv.fstep_lift PC); auto using run_cbs_p. Qed.

Lemma mk_world_p nodes edges order :
  (forall ed, In ed edges -> cont (est ed) = []) -> PC (mk_world nodes edges order).
Proof.
  intros H0. apply (FactoryInv.mk_steps_lift PC); eauto with pdb.
  intros _ e L. simpl in *. unfold get_edge. simpl. rewrite H0; [reflexivity|]. apply nth_In. exact L.
Qed.

(* C03 (inside the edges), for every factory configuration whose edges start empty, and every number
   of kernel steps: unless the run crashed, the items inside an edge are exactly the items the trace
   says were put on it and not yet taken from it -- no item appears in or vanishes from an edge *)
Theorem edge_conservation nodes edges order n :
  (forall ed, In ed edges -> cont (est ed) = []) ->
  let w := FactoryInv.iter_fstep n (mk_world nodes edges order) in
  wcrash w = None ->
  forall e, (e < length (wedges w))%nat ->
    Permutation (inside e (wlog w))
                (StoreB.transit (est (get_edge w e)) ++ StoreB.ready (est (get_edge w e))).
Proof.
  intros H0 w C e L.
  pose proof (FactoryInv.iter_fstep_lift PC (fun w k _ _ _ H => H) run_cbs_p n _ (mk_world_p nodes edges order H0) C e L) as K.
  rewrite app_nil_r in K. exact K.
Qed.
