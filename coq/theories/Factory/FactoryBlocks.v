(* What single process blocks do, for every world (no reachability assumption): the block-level theorems of C08 (the
   worker arms the drawn delay), C09 (non-blocking drop / push, FIRST_AVAILABLE and index policies, machine worker, source,
   splitter / combiner dispatch), C15 (one round-robin step per item, on both sides; the request goes to the chosen edge
   only) and C16 (the splitter's order, the combiner's packing).
   The pattern, on C09's non-blocking half: what a non-blocking machine worker and a non-blocking source do in the
   block that runs when an item is ready (the worker's processing timer has fired / the source has just created the
   item), for FIRST_AVAILABLE output:
     - no out-edge has room (the probe can_put is false on every out-edge): the item is dropped in that very block --
       exactly one discard is counted and one discard entry is written for exactly that item, no edge is touched
       (no reservation is issued, nothing is put), and the process goes on (the worker to the release of its slot,
       the source to its next inter-arrival wait);
     - some out-edge has room: nothing is dropped or counted, no edge is touched by this block, and a push process
       for the FIRST such out-edge and exactly this item is started (C09_probe_yes_then_no_wait_in_every_factory: its
       reservation is granted in the call and its event is already triggered). *)
From Coq Require Import List ZArith Lia Bool Arith.
From RecordUpdate Require Import RecordUpdate.
From FV Require Import ListLemmas Kernel World Factory Frames.
From FV Require StoreB.
Import ListNotations.
Open Scope Z_scope.

(* the probe looks at the edges only *)
Lemma e_can_put_edges w w' e : wedges w' = wedges w -> e_can_put w' e = e_can_put w e.
Proof. unfold e_can_put, get_edge. intros ->. reflexivity. Qed.
Lemma first_can_put_edges w w' l : wedges w' = wedges w -> first_can_put w' l = first_can_put w l.
Proof.
  intros E. unfold first_can_put. induction l as [|e l IH]; [reflexivity|].
  rewrite (e_can_put_edges w w' e E). destruct (e_can_put w e); auto.
Qed.
Lemma first_can_put_some w l e : first_can_put w l = Some e ->
  exists l1 l2, l = l1 ++ e :: l2 /\ e_can_put w e = true /\ Forall (fun x => e_can_put w x = false) l1.
Proof.
  unfold first_can_put. induction l as [|x l IH]; [discriminate|].
  destruct (e_can_put w x) eqn:C.
  - intros [= <-]. exists [], l. repeat split; auto.
  - intros H. destruct (IH H) as (l1 & l2 & A & B & D). exists (x :: l1), l2. subst. repeat split; auto.
Qed.
Lemma first_can_put_none w l : first_can_put w l = None -> Forall (fun x => e_can_put w x = false) l.
Proof.
  unfold first_can_put. induction l as [|x l IH]; [constructor|].
  destruct (e_can_put w x) eqn:C; [discriminate|]. intros H. constructor; auto.
Qed.

Definition edges_untouched (w w' : world) : Prop := wedges w' = wedges w /\ witems w' = witems w.
Definition not_crashed (w : world) : Prop := wcrash w = None.

(* the facts about edges, items and trace are read off one equation for [flow], the rest [R] is proved apart *)
Lemma flow_facts w' e i l (R : Prop) : flow w' = (e, i, l) -> R -> wedges w' = e /\ witems w' = i /\ wlog w' = l /\ R.
Proof. intros [= -> -> ->] H. repeat split; exact H. Qed.
Lemma flow_untouched w w' l (R : Prop) : flow w' = (wedges w, witems w, l) -> R -> edges_untouched w w' /\ wlog w' = l /\ R.
Proof. intros [= A B ->] H. repeat split; assumption. Qed.

(* ------------------------------------------------------------------ Machine worker, FIRST_AVAILABLE, non-blocking *)
(* The theorems about one branch of a block start from an equation for that branch, the lines of Factory.v with the
   branch selected.  The clock and the probes for room are read from [w] throughout: no operation before them moves
   the clock or touches an edge, and [wnow] of the updated world would carry a second copy of that world. *)
Lemma worker_block_first_nonblocking w p :
  let pr := me w p in let n := pown pr in let nd := get_node w n in
  ppc pr = 1%nat -> noutsel nd = PFirst -> nblocking nd = false ->
  let w1 := upd_node w n (fun x => x <| nsumproc ::= fun v => v + (wnow w - pt0 pr) |>) in
  worker_block w p =
  match first_can_put w (nouts nd) with
  | Some e =>
      let w := upd_proc w1 p (fun x => x <| pt1 := wnow w |>) in
      let w := update_state_rep (set_thread (update_state_rep w n) n p true) n in
      let '(w, done) := spawn_push w n (pit pr) e false in (setpc w p 3, YEvent done)
  | None => worker_release (logw (upd_node w1 n (fun x => x <| ndisc ::= S |>)) (LDiscard (wnow w) n (pit pr))) p n
  end.
Proof. intros pr n nd PC SEL NB. subst pr n nd. unfold worker_block. rewrite PC, SEL, NB, (first_can_put_edges w) by reflexivity. reflexivity. Qed.

Theorem worker_nonblocking_drops w p :
  let n := pown (me w p) in let nd := get_node w n in
  ppc (me w p) = 1%nat -> noutsel nd = PFirst -> nblocking nd = false ->
  first_can_put w (nouts nd) = None -> (n < length (wnodes w))%nat ->
  let w' := fst (worker_block w p) in
  edges_untouched w w' /\
  wlog w' = wlog w ++ [LDiscard (wnow w) n (pit (me w p))] /\
  ndisc (get_node w' n) = S (ndisc nd).
Proof.
  intros n nd PC SEL NB FC L. subst n nd. rewrite (worker_block_first_nonblocking w p PC SEL NB), FC.
  intros w'. unfold get_node in *. apply flow_untouched; subst w'.
  - rewrite worker_release_flow, logw_flow. reflexivity.
  - rewrite (worker_release_node _ _ _ ndisc), logw_wnodes, upd_node_wnodes, (nth_upd_field ndisc S), upd_node_wnodes, (nth_upd_kept ndisc)
      by (rewrite ?upd_node_wnodes, ?upd_length; reflexivity || exact L). reflexivity.
Qed.

Theorem worker_nonblocking_pushes w p e :
  let n := pown (me w p) in let nd := get_node w n in
  ppc (me w p) = 1%nat -> noutsel nd = PFirst -> nblocking nd = false ->
  first_can_put w (nouts nd) = Some e -> (p < length (wprocs w))%nat ->
  let w' := fst (worker_block w p) in
  edges_untouched w w' /\ wlog w' = wlog w /\ ndisc (get_node w' n) = ndisc nd /\
  (* one process more: the push of exactly this item to the first out-edge with room *)
  length (wprocs w') = S (length (wprocs w)) /\
  let q := nth (length (wprocs w)) (wprocs w') proc0 in
  pkd q = KPush /\ pown q = n /\ pit q = pit (me w p) /\ pix q = e /\ ppc q = 0%nat /\ palive q = true.
Proof.
  intros n nd PC SEL NB FC LP. subst n nd.
  rewrite (worker_block_first_nonblocking w p PC SEL NB), FC, fst_let, fst_pair.
  intros w'. unfold set_thread, get_node in *. apply flow_untouched; [|split]; subst w'.
  - rewrite setpc_flow, spawn_push_flow, update_state_rep_flow, upd_node_flow, update_state_rep_flow. reflexivity.
  - rewrite setpc_wnodes, spawn_push_wnodes, (update_state_rep_node _ _ ndisc), upd_node_wnodes, (nth_upd_kept ndisc),
      (update_state_rep_node _ _ ndisc), upd_proc_wnodes, upd_node_wnodes, (nth_upd_kept ndisc) by (try intro; reflexivity).
    reflexivity.
  - apply push_started; [|exact LP].
    rewrite update_state_rep_wprocs, upd_node_wprocs, update_state_rep_wprocs, upd_proc_wprocs. apply upd_length.
Qed.

(* ------------------------------------------------------------------ Source, FIRST_AVAILABLE, non-blocking *)
Lemma source_block_first_nonblocking w p :
  let pr := me w p in let n := pown pr in let nd := get_node w n in
  ppc pr = 2%nat -> noutsel nd = PFirst -> nblocking nd = false ->
  let item := length (witems w) in
  let w1 := upd_node (w <| witems ::= fun l => l ++ [item0 <| i_src := n |> <| i_pallet := npallet nd |>] |>) n (fun x => x <| ngen ::= S |>) in
  let w2 := upd_proc (logw w1 (LGen (wnow w) n item)) p (fun x => x <| pit := item |>) in
  source_block w p =
  match first_can_put w (nouts nd) with
  | Some e => let '(w, done) := spawn_push (update_state w2 n ST_BLOCKED) n item e true in (setpc w p 4, YEvent done)
  | None => source_loop (logw (upd_node w2 n (fun x => x <| ndisc ::= S |>)) (LDiscard (wnow w) n item)) p n
  end.
Proof. intros pr n nd PC SEL NB. subst pr n nd. unfold source_block. rewrite PC, SEL, NB, (first_can_put_edges w) by reflexivity. reflexivity. Qed.

Theorem source_nonblocking_drops w p :
  let n := pown (me w p) in let nd := get_node w n in
  ppc (me w p) = 2%nat -> noutsel nd = PFirst -> nblocking nd = false ->
  first_can_put w (nouts nd) = None -> (n < length (wnodes w))%nat ->
  let item := length (witems w) in
  let w' := fst (source_block w p) in
  wedges w' = wedges w /\
  witems w' = witems w ++ [item0 <| i_src := n |> <| i_pallet := npallet nd |>] /\
  wlog w' = wlog w ++ [LGen (wnow w) n item; LDiscard (wnow w) n item;
                       LDraw n 0 (stream_at (ndelays nd) (ndptr nd))] /\
  ndisc (get_node w' n) = S (ndisc nd).
Proof.
  intros n nd PC SEL NB FC L item. subst n nd item.
  rewrite (source_block_first_nonblocking w p PC SEL NB), FC.
  intros w'. unfold get_node in *. apply flow_facts; subst w'.
  - rewrite source_loop_flow, logw_flow, upd_node_flow, upd_proc_flow, logw_flow. unfold get_node.
    rewrite logw_wnodes, upd_node_wnodes, (nth_upd_kept ndelays), (nth_upd_kept ndptr), upd_proc_wnodes, logw_wnodes, upd_node_wnodes,
      (nth_upd_kept ndelays), (nth_upd_kept ndptr) by reflexivity.
    unfold logged, flow. cbn [fst snd]. rewrite <- !app_assoc. reflexivity.
  - rewrite source_loop_ndisc, logw_wnodes, upd_node_wnodes, (nth_upd_field ndisc S), upd_proc_wnodes, logw_wnodes, upd_node_wnodes,
      (nth_upd_kept ndisc) by (rewrite ?upd_proc_wnodes, ?logw_wnodes, ?upd_node_wnodes, ?upd_length; reflexivity || exact L). reflexivity.
Qed.

Theorem source_nonblocking_pushes w p e :
  let n := pown (me w p) in let nd := get_node w n in
  ppc (me w p) = 2%nat -> noutsel nd = PFirst -> nblocking nd = false ->
  first_can_put w (nouts nd) = Some e -> (p < length (wprocs w))%nat ->
  let item := length (witems w) in
  let w' := fst (source_block w p) in
  wedges w' = wedges w /\
  wlog w' = wlog w ++ [LGen (wnow w) n item] /\
  ndisc (get_node w' n) = ndisc nd /\
  length (wprocs w') = S (length (wprocs w)) /\
  let q := nth (length (wprocs w)) (wprocs w') proc0 in
  pkd q = KPush /\ pown q = n /\ pit q = item /\ pix q = e /\ ppc q = 0%nat /\ palive q = true.
Proof.
  intros n nd PC SEL NB FC LP item. subst n nd item.
  rewrite (source_block_first_nonblocking w p PC SEL NB), FC, fst_let, fst_pair.
  intros w'. unfold get_node in *.
  edestruct (flow_inv w') as (F1 & _ & F3); [subst w'; rewrite setpc_flow, spawn_push_flow, update_state_flow; reflexivity|].
  split; [exact F1|split; [exact F3|]]. subst w'. split.
  - rewrite setpc_wnodes, spawn_push_wnodes, (update_state_node _ _ ndisc), upd_proc_wnodes, logw_wnodes, upd_node_wnodes,
      (nth_upd_kept ndisc) by (try intro; reflexivity). reflexivity.
  - apply push_started; [|exact LP]. rewrite update_state_wprocs, upd_proc_wprocs. apply upd_length.
Qed.

(* ------------------------------------------------------------------ C15: ROUND_ROBIN, one step per item, recorded *)
Definition same_frame (w w' : world) : Prop :=
  wnodes w' = wnodes w /\ wlog w' = wlog w /\ wprocs w' = wprocs w /\ witems w' = witems w.
Lemma same_frame_trans a b c : same_frame a b -> same_frame b c -> same_frame a c.
Proof. intros (A1 & A2 & A3 & A4) (B1 & B2 & B3 & B4). repeat split; congruence. Qed.
Lemma store_op_frame w e o : same_frame w (fst (fst (store_op w e o))).
Proof. unfold store_op. destruct (StoreB.step _ _) as [[s r] t]. repeat split. Qed.
Lemma same_frame_kern w w' : no_kern w' = no_kern w -> same_frame w w'.
Proof. intros H. repeat split; [exact (f_equal wnodes H)|exact (f_equal wlog H)|exact (f_equal wprocs H)|exact (f_equal witems H)]. Qed.
Lemma e_reserve_respects (R : world -> world -> Prop) e :
  (forall a b c, R a b -> R b c -> R a c) -> (forall w, R w (fst (w_event w))) ->
  (forall w o, R w (fst (fst (store_op w e o)))) -> (forall w l, R w (w_succeed_all w l)) ->
  forall w p, R w (fst (e_reserve_put w e p)) /\ R w (fst (e_reserve_get w e p)).
Proof.
  intros T EV ST SU w p. unfold e_reserve_put, e_reserve_get. pose proof (EV w) as F1. destruct (w_event w) as [w1 ev].
  pose proof (ST w1 (StoreB.Sync ev)) as F2. destruct (store_op w1 e (StoreB.Sync ev)) as [[w2 r2] t2].
  pose proof (ST w2 (StoreB.RPut p 0)) as F3. destruct (store_op w2 e (StoreB.RPut p 0)) as [[w3 r3] t3].
  pose proof (ST w2 (StoreB.RGet p 0)) as F4. destruct (store_op w2 e (StoreB.RGet p 0)) as [[w4 r4] t4].
  split; eauto.
Qed.
Lemma e_reserve_frame w e p : same_frame w (fst (e_reserve_put w e p)) /\ same_frame w (fst (e_reserve_get w e p)).
Proof.
  apply e_reserve_respects; [apply same_frame_trans|repeat split|intros; apply store_op_frame|intros; apply same_frame_kern, w_succeed_all_kern].
Qed.
Lemma e_reserve_put_shape w e p : same_frame w (fst (e_reserve_put w e p)).
Proof. apply e_reserve_frame. Qed.
Lemma e_reserve_get_shape w e p : same_frame w (fst (e_reserve_get w e p)) /\ snd (e_reserve_get w e p) = length (evs (wk w)).
Proof.
  split; [apply e_reserve_frame|]. unfold e_reserve_get, w_event, new_event. 
  destruct (store_op _ _ _) as [[w2 r2] t2]. destruct (store_op _ _ _) as [[w3 r3] t3]. reflexivity.
Qed.
Lemma e_reserve_put_wnodes w e p : wnodes (fst (e_reserve_put w e p)) = wnodes w. Proof. apply e_reserve_put_shape. Qed.
Lemma e_reserve_put_wlog w e p : wlog (fst (e_reserve_put w e p)) = wlog w. Proof. apply e_reserve_put_shape. Qed.
Lemma e_reserve_put_wprocs w e p : wprocs (fst (e_reserve_put w e p)) = wprocs w. Proof. apply e_reserve_put_shape. Qed.
Lemma e_reserve_get_wnodes w e p : wnodes (fst (e_reserve_get w e p)) = wnodes w. Proof. apply e_reserve_get_shape. Qed.
Lemma e_reserve_get_wlog w e p : wlog (fst (e_reserve_get w e p)) = wlog w. Proof. apply e_reserve_get_shape. Qed.
Lemma e_reserve_get_wprocs w e p : wprocs (fst (e_reserve_get w e p)) = wprocs w. Proof. apply e_reserve_get_shape. Qed.

Lemma worker_block_round_robin w p :
  let pr := me w p in let n := pown pr in let nd := get_node w n in
  ppc pr = 1%nat -> noutsel nd = PRoundRobin -> nouts nd <> [] ->
  let i := (noutptr nd mod length (nouts nd))%nat in
  let e := nth i (nouts nd) 0%nat in
  let w1 := upd_node w n (fun x => x <| nsumproc ::= fun v => v + (wnow w - pt0 pr) |>) in
  let w2 := logw (upd_node w1 n (fun x => x <| noutptr ::= S |>)) (LSel n true i) in
  let w3 := update_state_rep (set_thread w2 n p true) n in
  let w4 := upd_proc w3 p (fun x => x <| pt1 := wnow w |>) in
  worker_block w p =
  if nblocking nd then
    let '(w, t) := e_reserve_put w4 e p in
    (setpc (upd_proc w p (fun x => x <| ptks := [t] |> <| pix := e |>)) p 5, YEvent t)
  else if e_can_put w e then
    let '(w, done) := spawn_push w4 n (pit pr) e false in (setpc w p 6, YEvent done)
  else worker_release (logw (upd_node w3 n (fun x => x <| ndisc ::= S |>)) (LDiscard (wnow w) n (pit pr))) p n.
Proof.
  intros pr n nd PC SEL NE. subst pr n nd. unfold worker_block, get_node in *. rewrite PC, SEL. cbv iota.
  rewrite (draw_sel_round_robin w _ _ true) by ((apply sel_fields_upd; reflexivity) || exact SEL).
  cbv iota. unfold wnow. rewrite Nat2Z.id, in_range_mod, update_state_rep_wk, (e_can_put_edges w) by (exact NE || (rewrite update_state_rep_wedges; reflexivity)). reflexivity.
Qed.

(* a blocking machine worker under ROUND_ROBIN: the block that runs when the item is ready draws exactly one index --
   the number of draws so far modulo the number of out-edges --, records exactly that index, and reserves space on
   exactly that out-edge *)
Theorem worker_round_robin_step w p :
  let n := pown (me w p) in let nd := get_node w n in
  ppc (me w p) = 1%nat -> noutsel nd = PRoundRobin -> nblocking nd = true -> nouts nd <> [] ->
  (n < length (wnodes w))%nat -> (p < length (wprocs w))%nat ->
  let k := noutptr nd in let m := length (nouts nd) in
  let w' := fst (worker_block w p) in
  noutptr (get_node w' n) = S k /\
  wlog w' = wlog w ++ [LSel n true (k mod m)] /\
  pix (me w' p) = nth (k mod m) (nouts nd) 0%nat /\
  ppc (me w' p) = 5%nat.
Proof.
  intros n nd PC SEL NB NE L LP k m. subst n nd k m. rewrite (worker_block_round_robin w p PC SEL NE), NB, fst_let, fst_pair.
  intros w'. unfold set_thread, get_node in *. split; [|split]; subst w'.
  - rewrite setpc_wnodes, upd_proc_wnodes, e_reserve_put_wnodes, upd_proc_wnodes, (update_state_rep_node _ _ noutptr), upd_node_wnodes,
      (nth_upd_kept noutptr), logw_wnodes, upd_node_wnodes, (nth_upd_field noutptr S), upd_node_wnodes, (nth_upd_kept noutptr)
      by (rewrite ?upd_node_wnodes, ?upd_length; (try intro; reflexivity) || exact L).
    reflexivity.
  - rewrite setpc_wlog, upd_proc_wlog, e_reserve_put_wlog, upd_proc_wlog, update_state_rep_wlog, upd_node_wlog, logw_wlog. reflexivity.
  - rewrite me_setpc_upd by (rewrite e_reserve_put_wprocs, upd_proc_wprocs, upd_length, update_state_rep_wprocs; exact LP).
    split; reflexivity.
Qed.

(* ------------------------------------------------------------------ C08: the worker's timer, C16: the splitter's order *)
(* env.timeout(d): one new event, already triggered, queued once for now + d *)
Lemma timeout_event k d :
  snd (timeout k d) = length (evs k) /\
  e_trig (get_ev (fst (timeout k d)) (length (evs k))) = true /\
  In {| q_time := now k + d; q_prio := NORMAL; q_seq := seq k; q_ev := length (evs k) |} (queue (fst (timeout k d))) /\
  length (queue (fst (timeout k d))) = S (length (queue k)).
Proof.
  unfold timeout, new_event, schedule, mark_trig, set_evs, get_ev. cbn [fst snd evs queue now seq]. repeat split.
  - rewrite nth_upd_same by (rewrite app_length; simpl; lia). reflexivity.
  - apply qins_in. left. reflexivity.
  - generalize (queue k). intros q. induction q as [|y q IH]; simpl; auto. destruct (qlt _ y); simpl; auto.
Qed.

(* the first block of a machine worker (it runs in the instant in which the item was pulled): it stamps the start of
   processing with the clock, arms ONE timer -- for exactly the delay that was drawn for this item -- and waits on it;
   it touches no edge, no item, no trace entry *)
Theorem worker_arms_the_drawn_delay w p :
  ppc (me w p) = 0%nat -> 0 <= pdl (me w p) -> (p < length (wprocs w))%nat ->
  let r := worker_block w p in let w' := fst r in
  wedges w' = wedges w /\ witems w' = witems w /\ wlog w' = wlog w /\
  pt0 (me w' p) = wnow w /\ ppc (me w' p) = 1%nat /\
  exists t, snd r = YEvent t /\ t = length (evs (wk w)) /\
    e_trig (get_ev (wk w') t) = true /\
    In {| q_time := wnow w + pdl (me w p); q_prio := NORMAL; q_seq := seq (wk w); q_ev := t |} (queue (wk w')) /\
    length (queue (wk w')) = S (length (queue (wk w))).
Proof.
  intros PC D LP r w'. subst w'. assert (E : r = worker_block w p) by reflexivity. clearbody r.
  unfold worker_block, w_timeout in E. rewrite PC, (proj2 (Z.ltb_ge _ _) D) in E. cbv iota in E.
  rewrite (surjective_pairing (timeout _ _)) in E. cbv iota in E. rewrite E, fst_pair. clear E r.
  unfold me, get_proc, wnow. destruct (timeout_event (wk w) (pdl (nth p (wprocs w) proc0))) as (T1 & T2 & T3 & T4). rewrite setpc_wk, setpc_wprocs, set_wk_wprocs, upd_proc_wprocs, upd_proc_wk, update_state_rep_wprocs, update_state_rep_wk.
  rewrite !nth_upd_same by (rewrite ?upd_length; exact LP). apply flow_facts.
  - rewrite setpc_flow, set_wk_flow, upd_proc_flow. apply update_state_rep_flow.
  - rewrite T1. repeat split. eexists. repeat split; assumption.
Qed.

(* the splitter's worker hands out the head of what is left on the pallet, the pallet itself only when nothing is
   left, and nothing after the pallet *)
Theorem splitter_next_is_head w p n x rest :
  pkd (me w p) = KSplitWorker -> sc_phase (me w p) = 0%nat ->
  i_contents (get_item w (pit (me w p))) = x :: rest ->
  sc_next w p n = sc_dispatch (upd_item w (pit (me w p)) (fun y => y <| i_contents := rest |>)) p n x 0.
Proof. intros K PH C. unfold sc_next. rewrite K, PH, C. reflexivity. Qed.

Theorem splitter_pallet_comes_last w p n :
  pkd (me w p) = KSplitWorker -> sc_phase (me w p) = 0%nat ->
  i_contents (get_item w (pit (me w p))) = [] ->
  sc_next w p n = sc_dispatch w p n (pit (me w p)) 1.
Proof. intros K PH C. unfold sc_next. rewrite K, PH, C. reflexivity. Qed.

Theorem splitter_nothing_after_the_pallet w p n ph :
  sc_phase (me w p) = S ph -> sc_next w p n = sc_release w p n.
Proof. intros PH. unfold sc_next. rewrite PH. destruct (pkd (me w p)); reflexivity. Qed.

(* a dispatched flow item is recorded as the worker's current item with its phase *)
Theorem dispatch_records_current w p c ph :
  (p < length (wprocs w))%nat ->
  let w0 := upd_proc w p (fun x => x <| plst := [c; ph] |>) in
  sc_cur (me w0 p) = c /\ sc_phase (me w0 p) = ph.
Proof.
  intros LP. unfold sc_cur, sc_phase, me, get_proc, upd_proc. cbn [wprocs set]. simpl.
  rewrite nth_upd_same by exact LP. cbn. auto.
Qed.

(* ------------------------------------------------------------------ C15, the input side: a machine whose in-edge policy
   is an index policy draws exactly one index per item when its worker slot is granted, records exactly that index, and
   issues its retrieval request on exactly that in-edge (no other edge is touched) *)
Lemma get_proc_procs w w' p : wprocs w' = wprocs w -> get_proc w' p = get_proc w p.
Proof. unfold get_proc. intros ->. reflexivity. Qed.

Lemma machine_block_index w p :
  let pr := me w p in let n := pown pr in let nd := get_node w n in
  ppc pr = 2%nat -> ninsel nd <> PFirst ->
  machine_block w p =
  let '(w, v) := draw_sel (occupancy w n true) n false in
  match v with
  | None => (crashw w (CValue 85), YDone)
  | Some i =>
      if negb (in_range i (length (nins nd))) then (crashw w (CAssert 86), YDone) else
      let w := logw w (LSel n false (Z.to_nat i)) in
      let '(w, t) := e_reserve_get w (nth (Z.to_nat i) (nins nd) 0%nat) p in
      (setpc (upd_proc w p (fun x => x <| ptks := [t] |> <| pix := Z.to_nat i |>)) p 4, YEvent t)
  end.
Proof.
  intros pr n nd PC SEL. subst pr n nd. unfold machine_block. rewrite PC. destruct (ninsel _); [contradiction|reflexivity..].
Qed.

Theorem machine_round_robin_pull w p :
  let n := pown (me w p) in let nd := get_node w n in
  ppc (me w p) = 2%nat -> ninsel nd = PRoundRobin -> nins nd <> [] ->
  (n < length (wnodes w))%nat -> (p < length (wprocs w))%nat ->
  let k := ninptr nd in let m := length (nins nd) in
  let w' := fst (machine_block w p) in
  ninptr (get_node w' n) = S k /\
  wlog w' = wlog w ++ [LSel n false (k mod m)] /\
  pix (me w' p) = (k mod m)%nat /\
  ptks (me w' p) = [length (evs (wk w))] /\
  ppc (me w' p) = 4%nat.
Proof.
  intros n nd PC SEL NE L LP k m. subst n nd k m. rewrite (machine_block_index w p PC) by congruence.
  rewrite (draw_sel_round_robin w _ _ false) by ((apply sel_fields_upd; reflexivity) || exact SEL).
  cbv iota. rewrite Nat2Z.id, in_range_mod, fst_let, fst_pair by exact NE. intros w'. unfold occupancy, get_node in *. split; [|split]; subst w'.
  - rewrite setpc_wnodes, upd_proc_wnodes, e_reserve_get_wnodes, logw_wnodes, upd_node_wnodes, (nth_upd_field ninptr S), upd_node_wnodes,
      (nth_upd_kept ninptr) by (rewrite ?upd_node_wnodes, ?upd_length; reflexivity || exact L).
    reflexivity.
  - rewrite setpc_wlog, upd_proc_wlog, e_reserve_get_wlog, logw_wlog. reflexivity.
  - rewrite me_setpc_upd, (proj2 (e_reserve_get_shape _ _ _)) by (rewrite e_reserve_get_wprocs; exact LP). repeat split.
Qed.

Theorem machine_constant_pull w p i :
  let n := pown (me w p) in let nd := get_node w n in
  ppc (me w p) = 2%nat -> ninsel nd = PConst i -> in_range i (length (nins nd)) = true ->
  (n < length (wnodes w))%nat -> (p < length (wprocs w))%nat ->
  let w' := fst (machine_block w p) in
  ninptr (get_node w' n) = ninptr nd /\
  wlog w' = wlog w ++ [LSel n false (Z.to_nat i)] /\
  pix (me w' p) = Z.to_nat i /\
  ptks (me w' p) = [length (evs (wk w))] /\
  ppc (me w' p) = 4%nat.
Proof.
  intros n nd PC SEL IR L LP. subst n nd. rewrite (machine_block_index w p PC) by congruence.
  rewrite (draw_sel_const w _ _ false i) by ((apply sel_fields_upd; reflexivity) || exact SEL).
  cbv iota. rewrite IR. cbv beta iota delta [negb]. rewrite fst_let, fst_pair. intros w'. unfold occupancy, get_node in *. split; [|split]; subst w'.
  - rewrite setpc_wnodes, upd_proc_wnodes, e_reserve_get_wnodes, logw_wnodes, upd_node_wnodes, (nth_upd_kept ninptr) by reflexivity.
    reflexivity.
  - rewrite setpc_wlog, upd_proc_wlog, e_reserve_get_wlog, logw_wlog. reflexivity.
  - rewrite me_setpc_upd, (proj2 (e_reserve_get_shape _ _ _)) by (rewrite e_reserve_get_wprocs; exact LP). repeat split.
Qed.

(* the other edges: a reservation request changes no edge but the one it is issued on *)
Definition only_edge (e : nat) (w w' : world) : Prop := forall e', e' <> e -> get_edge w' e' = get_edge w e'.
Lemma only_edge_refl e w : only_edge e w w. Proof. intros e' _. reflexivity. Qed.
Lemma only_edge_trans e a b c : only_edge e a b -> only_edge e b c -> only_edge e a c.
Proof. intros A B e' N. rewrite (B e' N). apply A. exact N. Qed.
Lemma only_edge_edges e w w' : wedges w' = wedges w -> only_edge e w w'.
Proof. intros H e' _. unfold get_edge. rewrite H. reflexivity. Qed.
Lemma store_op_only w e o : only_edge e w (fst (fst (store_op w e o))).
Proof. intros e' N. unfold get_edge. rewrite store_op_wedges. apply nth_upd_other. congruence. Qed.
Lemma e_reserve_only w e p : only_edge e w (fst (e_reserve_put w e p)) /\ only_edge e w (fst (e_reserve_get w e p)).
Proof.
  apply e_reserve_respects; [apply only_edge_trans|intros; apply only_edge_edges; reflexivity|intros; apply store_op_only|
    intros; apply only_edge_edges, w_succeed_all_wedges].
Qed.

Theorem machine_round_robin_pull_touches_one_edge w p :
  let n := pown (me w p) in let nd := get_node w n in
  ppc (me w p) = 2%nat -> ninsel nd = PRoundRobin -> nins nd <> [] ->
  only_edge (nth (ninptr nd mod length (nins nd)) (nins nd) 0%nat) w (fst (machine_block w p)).
Proof.
  intros n nd PC SEL NE. subst n nd. rewrite (machine_block_index w p PC) by congruence.
  rewrite (draw_sel_round_robin w _ _ false) by ((apply sel_fields_upd; reflexivity) || exact SEL).
  cbv iota. rewrite Nat2Z.id, in_range_mod, fst_let, fst_pair by exact NE.
  eapply only_edge_trans; [|apply only_edge_edges; rewrite setpc_wedges, upd_proc_wedges; reflexivity].
  eapply only_edge_trans; [|apply e_reserve_only]. apply only_edge_edges. reflexivity.
Qed.

(* ------------------------------------------------------------------ C16: the combiner's pack step *)
Definition keeps_pack (p : nat) (w w' : world) : Prop :=
  witems w' = witems w /\ length (wprocs w') = length (wprocs w) /\
  ptks (get_proc w' p) = ptks (get_proc w p) /\ plst (get_proc w' p) = plst (get_proc w p) /\
  pit (get_proc w' p) = pit (get_proc w p) /\ pix (get_proc w' p) = pix (get_proc w p) /\
  exists l, wlog w' = wlog w ++ l.
Lemma keeps_pack_refl p w : keeps_pack p w w.
Proof. repeat split. exists []. rewrite app_nil_r. reflexivity. Qed.
Lemma keeps_pack_trans p a b c : keeps_pack p a b -> keeps_pack p b c -> keeps_pack p a c.
Proof.
  intros (A1 & A2 & A3 & A4 & A5 & A6 & l1 & A7) (B1 & B2 & B3 & B4 & B5 & B6 & l2 & B7).
  repeat split; try congruence. exists (l1 ++ l2). rewrite B7, A7, app_assoc. reflexivity.
Qed.
Lemma keeps_pack_procs p w w' l : witems w' = witems w -> wprocs w' = wprocs w -> wlog w' = wlog w ++ l -> keeps_pack p w w'.
Proof. intros A B C. unfold keeps_pack, get_proc. rewrite A, B. repeat split. exists l. exact C. Qed.
Lemma keeps_pack_same p w w' : flow w' = flow w -> wprocs w' = wprocs w -> keeps_pack p w w'.
Proof. intros [= _ A C] B. apply keeps_pack_procs with (l := []); [exact A|exact B|rewrite app_nil_r; exact C]. Qed.
Lemma keeps_pack_upd p w f :
  (forall x, ptks (f x) = ptks x /\ plst (f x) = plst x /\ pit (f x) = pit x /\ pix (f x) = pix x) ->
  keeps_pack p w (upd_proc w p f).
Proof.
  intros F. unfold keeps_pack, get_proc. rewrite upd_proc_wprocs, upd_length, (nth_upd_kept ptks), (nth_upd_kept plst), (nth_upd_kept pit), (nth_upd_kept pix) by (intros x; apply F).
  repeat split. exists []. rewrite app_nil_r. reflexivity.
Qed.

Lemma combiner_loop_keeps w p n : keeps_pack p w (fst (combiner_loop w p n)).
Proof.
  unfold combiner_loop, draw_delay, setpc. destruct (ptks (me w p)) as [|t0 ts].
  - destruct (_ <? 0); [|rewrite fst_let]; rewrite fst_pair.
    + eapply keeps_pack_trans; [|apply keeps_pack_same; [apply crashw_flow|apply crashw_wprocs]].
      eapply keeps_pack_procs; reflexivity.
    + eapply keeps_pack_trans; [|apply keeps_pack_upd; intros x; repeat split; reflexivity].
      eapply keeps_pack_trans; [|apply keeps_pack_same; [apply w_timeout_flow|apply w_timeout_wprocs]].
      eapply keeps_pack_trans; [|apply keeps_pack_upd; intros x; repeat split; reflexivity].
      eapply keeps_pack_trans; [|apply keeps_pack_same; [apply update_state_flow|apply update_state_wprocs]].
      eapply keeps_pack_trans; [|apply keeps_pack_upd; intros x; repeat split; reflexivity].
      eapply keeps_pack_procs; reflexivity.
  - destruct (any_triggered w (t0 :: ts)); [|rewrite fst_let]; rewrite fst_pair.
    + apply keeps_pack_upd. intros x; repeat split; reflexivity.
    + eapply keeps_pack_trans; [|apply keeps_pack_upd; intros x; repeat split; reflexivity].
      eapply keeps_pack_trans; [|apply keeps_pack_upd; intros x; repeat split; reflexivity].
      apply keeps_pack_same; [apply w_any_of_flow|apply w_any_of_wprocs].
Qed.

Lemma kern_items_procs w w' : no_kern w' = no_kern w -> witems w' = witems w /\ wprocs w' = wprocs w.
Proof. intros H. split; [exact (f_equal witems H)|exact (f_equal wprocs H)]. Qed.
Lemma e_get_items w e p tok n : witems (fst (e_get w e p tok n)) = witems w /\ wprocs (fst (e_get w e p tok n)) = wprocs w.
Proof.
  unfold e_get. destruct (StoreB.step _ _) as [[s r] ts].
  set (w1 := upd_edge w e (fun x => x <| est := s |>)).
  destruct r as [t| |it|er]; rewrite fst_pair; try apply (kern_items_procs w1), out_err_kern.
  apply (kern_items_procs (e_update_level w1 e) (w_succeed_all _ ts)), w_succeed_all_kern.
Qed.

(* the block that runs when one of the outstanding ingredient reservations has been granted: the item retrieved with the
   first granted token goes into THE pallet this combiner is filling, at the end of its contents, and into no other item;
   exactly that token leaves the outstanding list (with its in-edge index); the pack is recorded right after the retrieval *)
Theorem combiner_packs_the_retrieved_item w p ti tok w1 i :
  let pr := me w p in let n := pown pr in let nd := get_node w n in
  ppc pr = 4%nat -> (p < length (wprocs w))%nat -> (pit pr < length (witems w))%nat ->
  first_triggered w (ptks pr) = Some (ti, tok) ->
  e_get w (nth (nth ti (plst pr) 0%nat) (nins nd) 0%nat) p tok n = (w1, Some i) ->
  i_pallet (get_item w i) = false ->
  let w' := fst (combiner_block w p) in
  i_contents (get_item w' (pit pr)) = i_contents (get_item w (pit pr)) ++ [i] /\
  (forall j, j <> pit pr -> get_item w' j = get_item w j) /\
  ptks (me w' p) = remove_nth ti (ptks pr) /\ plst (me w' p) = remove_nth ti (plst pr) /\
  pit (me w' p) = pit pr /\ pix (me w' p) = S (pix pr) /\
  exists l, wlog w' = wlog w1 ++ LPack (wnow w1) n (pit pr) i :: l.
Proof.
  intros pr n nd PC LP LI FT EG NP w'. assert (E : w' = fst (combiner_block w p)) by reflexivity. clearbody w'.
  destruct (e_get_items w (nth (nth ti (plst pr) 0%nat) (nins nd) 0%nat) p tok n) as (I1 & I2). rewrite EG, fst_pair in I1, I2.
  subst pr n nd. unfold combiner_block in E. rewrite PC, FT in E. cbv iota in E. rewrite EG in E. cbv iota in E.
  unfold get_item in E, NP. rewrite I1, NP in E. cbv iota in E.
  match type of E with _ = fst (combiner_loop ?w4 _ ?n) => destruct (combiner_loop_keeps w4 p n) as (K1 & K2 & K3 & K4 & K5 & K6 & l & K7) end.
  rewrite <- E in *. unfold me, get_item. rewrite K1, K3, K4, K5, K6, K7. unfold get_proc.
  change (witems (upd_proc (logw ?a ?x) ?q ?f)) with (witems a).
  rewrite upd_item_witems, I1, upd_proc_wprocs, logw_wprocs, upd_item_wprocs, I2, upd_proc_wlog, logw_wlog,
    upd_item_wlog, nth_upd_same, nth_upd_same by assumption.
  repeat split.
  - intros j N. apply nth_upd_other. intros H. apply N. symmetry. exact H.
  - exists l. rewrite <- app_assoc. reflexivity.
Qed.

(* ------------------------------------------------------------------ C09, index policies: the non-blocking machine worker
   under ROUND_ROBIN draws its out-edge once, records it, and then either drops the item at once (no room on the drawn edge)
   or hands it to a push process for exactly that edge *)
(* a non-blocking machine worker under ROUND_ROBIN whose drawn out-edge has no room: one draw, recorded; the item is dropped
   in that very block: one discard counted and logged for exactly this item, no edge touched *)
Theorem worker_nonblocking_round_robin_drops w p :
  let n := pown (me w p) in let nd := get_node w n in
  ppc (me w p) = 1%nat -> noutsel nd = PRoundRobin -> nblocking nd = false -> nouts nd <> [] ->
  (n < length (wnodes w))%nat ->
  let k := noutptr nd in let m := length (nouts nd) in
  e_can_put w (nth (k mod m) (nouts nd) 0%nat) = false ->
  let w' := fst (worker_block w p) in
  edges_untouched w w' /\
  wlog w' = wlog w ++ [LSel n true (k mod m); LDiscard (wnow w) n (pit (me w p))] /\
  ndisc (get_node w' n) = S (ndisc nd).
Proof.
  intros n nd PC SEL NB NE L k m CP. subst n nd k m.
  rewrite (worker_block_round_robin w p PC SEL NE), NB, CP.
  intros w'. unfold set_thread, get_node in *. apply flow_untouched; subst w'.
  - rewrite worker_release_flow, logw_flow, upd_node_flow, update_state_rep_flow, upd_node_flow, logw_flow.
    unfold logged, flow. cbn [fst snd]. rewrite <- app_assoc. reflexivity.
  - rewrite (worker_release_node _ _ _ ndisc), logw_wnodes, upd_node_wnodes, (nth_upd_field ndisc S), (update_state_rep_node _ _ ndisc),
      upd_node_wnodes, (nth_upd_kept ndisc), logw_wnodes, upd_node_wnodes, (nth_upd_kept ndisc), upd_node_wnodes, (nth_upd_kept ndisc)
      by (rewrite ?update_state_rep_nodes, ?upd_node_wnodes, ?upd_length, ?logw_wnodes, ?upd_node_wnodes, ?upd_length, ?upd_node_wnodes, ?upd_length;
          (try intro; reflexivity) || exact L).
    reflexivity.
Qed.

(* ... and when the drawn out-edge has room: nothing is dropped, no edge is touched by this block, and a push process for
   exactly this item and exactly the drawn out-edge is started *)
Theorem worker_nonblocking_round_robin_pushes w p :
  let n := pown (me w p) in let nd := get_node w n in
  ppc (me w p) = 1%nat -> noutsel nd = PRoundRobin -> nblocking nd = false -> nouts nd <> [] ->
  (n < length (wnodes w))%nat -> (p < length (wprocs w))%nat ->
  let k := noutptr nd in let m := length (nouts nd) in
  e_can_put w (nth (k mod m) (nouts nd) 0%nat) = true ->
  let w' := fst (worker_block w p) in
  edges_untouched w w' /\ wlog w' = wlog w ++ [LSel n true (k mod m)] /\ ndisc (get_node w' n) = ndisc nd /\
  length (wprocs w') = S (length (wprocs w)) /\
  let q := nth (length (wprocs w)) (wprocs w') proc0 in
  pkd q = KPush /\ pown q = n /\ pit q = pit (me w p) /\ pix q = nth (k mod m) (nouts nd) 0%nat /\ ppc q = 0%nat /\ palive q = true.
Proof.
  intros n nd PC SEL NB NE L LP k m CP. subst n nd k m.
  rewrite (worker_block_round_robin w p PC SEL NE), NB, CP, fst_let, fst_pair.
  intros w'. unfold set_thread, get_node in *. apply flow_untouched; [|split]; subst w'.
  - rewrite setpc_flow, spawn_push_flow, upd_proc_flow, update_state_rep_flow, upd_node_flow, logw_flow. reflexivity.
  - rewrite setpc_wnodes, spawn_push_wnodes, upd_proc_wnodes, (update_state_rep_node _ _ ndisc), upd_node_wnodes, (nth_upd_kept ndisc),
      logw_wnodes, upd_node_wnodes, (nth_upd_kept ndisc), upd_node_wnodes, (nth_upd_kept ndisc) by (try intro; reflexivity).
    reflexivity.
  - apply push_started; [|exact LP]. rewrite upd_proc_wprocs, upd_length, update_state_rep_wprocs. reflexivity.
Qed.

(* the output side: the blocking ROUND_ROBIN worker's block touches no edge other than the out-edge it drew *)
Theorem worker_round_robin_touches_one_edge w p :
  let n := pown (me w p) in let nd := get_node w n in
  ppc (me w p) = 1%nat -> noutsel nd = PRoundRobin -> nblocking nd = true -> nouts nd <> [] ->
  (n < length (wnodes w))%nat ->
  only_edge (nth (noutptr nd mod length (nouts nd)) (nouts nd) 0%nat) w (fst (worker_block w p)).
Proof.
  intros n nd PC SEL NB NE L. subst n nd. rewrite (worker_block_round_robin w p PC SEL NE), NB, fst_let, fst_pair.
  eapply only_edge_trans; [|apply only_edge_edges; rewrite setpc_wedges, upd_proc_wedges; reflexivity].
  eapply only_edge_trans; [|apply e_reserve_only]. apply only_edge_edges. rewrite upd_proc_wedges, update_state_rep_wedges. reflexivity.
Qed.

(* ------------------------------------------------------------------ C09: splitter and combiner workers (their shared dispatch
   of one flow item -- a content item or the pallet itself), FIRST_AVAILABLE, non-blocking *)
Lemma sc_dispatch_first_nonblocking w p n cur ph :
  let nd := get_node w n in
  noutsel nd = PFirst -> nblocking nd = false ->
  let w1 := upd_proc w p (fun x => x <| plst := [cur; ph] |>) in
  let w2 := check_state (set_thread (check_state (upd_proc w1 p (fun x => x <| pt1 := wnow w |>)) n) n p true) n in
  sc_dispatch w p n cur ph =
  match first_can_put w (nouts nd) with
  | Some e =>
      if is_buffer w2 e then let '(w, done) := spawn_push w2 n cur e false in (setpc w p 3, YEvent done)
      else (crashw w2 (CValue 114), YDone)
  | None => (setpc (logw (upd_node w1 n (fun x => x <| ndisc ::= S |>)) (LDiscard (wnow w) n cur)) p 8, YEvent 0%nat)
  end.
Proof. intros nd SEL NB. subst nd. unfold sc_dispatch. rewrite SEL, NB, (first_can_put_edges w) by reflexivity. reflexivity. Qed.

Theorem dispatch_nonblocking_drops w p n cur ph :
  let nd := get_node w n in
  noutsel nd = PFirst -> nblocking nd = false -> first_can_put w (nouts nd) = None -> (n < length (wnodes w))%nat ->
  let w' := fst (sc_dispatch w p n cur ph) in
  wedges w' = wedges w /\ witems w' = witems w /\
  wlog w' = wlog w ++ [LDiscard (wnow w) n cur] /\
  ndisc (get_node w' n) = S (ndisc nd) /\
  length (wprocs w') = length (wprocs w) /\ wk w' = wk w.
Proof.
  intros nd SEL NB FC L. subst nd. rewrite (sc_dispatch_first_nonblocking w p n cur ph SEL NB), FC, fst_pair.
  intros w'. unfold get_node in *. subst w'. repeat split.
  - rewrite setpc_wnodes, logw_wnodes, upd_node_wnodes, (nth_upd_field ndisc S) by (reflexivity || exact L). reflexivity.
  - rewrite setpc_wprocs, logw_wprocs, upd_node_wprocs, upd_proc_wprocs, !upd_length. reflexivity.
Qed.

Lemma is_buffer_edges w w' e : wedges w' = wedges w -> is_buffer w' e = is_buffer w e.
Proof. unfold is_buffer, get_edge. intros ->. reflexivity. Qed.

Theorem dispatch_nonblocking_pushes w p n cur ph e :
  let nd := get_node w n in
  noutsel nd = PFirst -> nblocking nd = false -> first_can_put w (nouts nd) = Some e -> is_buffer w e = true ->
  (p < length (wprocs w))%nat ->
  let w' := fst (sc_dispatch w p n cur ph) in
  wedges w' = wedges w /\ witems w' = witems w /\ wlog w' = wlog w /\ ndisc (get_node w' n) = ndisc nd /\
  (* one process more: the push of exactly this item to the first out-edge with room *)
  length (wprocs w') = S (length (wprocs w)) /\
  let q := nth (length (wprocs w)) (wprocs w') proc0 in
  pkd q = KPush /\ pown q = n /\ pit q = cur /\ pix q = e /\ ppc q = 0%nat /\ palive q = true.
Proof.
  intros nd SEL NB FC IB LP. subst nd.
  rewrite (sc_dispatch_first_nonblocking w p n cur ph SEL NB), FC, (is_buffer_edges w), IB, fst_let, fst_pair
    by (apply flow_wedges; unfold set_thread; rewrite ?check_state_flow, ?upd_node_flow, ?check_state_flow; reflexivity).
  intros w'. unfold set_thread, get_node in *. apply flow_facts; [|split]; subst w'.
  - rewrite setpc_flow, spawn_push_flow, check_state_flow, upd_node_flow, check_state_flow. reflexivity.
  - rewrite setpc_wnodes, spawn_push_wnodes, (check_state_node _ _ ndisc), upd_node_wnodes, (nth_upd_kept ndisc), (check_state_node _ _ ndisc)
      by (try intro; reflexivity). reflexivity.
  - apply push_started; [|exact LP]. rewrite check_state_wprocs, upd_node_wprocs, check_state_wprocs, upd_proc_wprocs, upd_proc_wprocs, !upd_length.
    reflexivity.
Qed.
