(* The worlds a process block passes through.
   Every block of Factory.v is a composition of a few dozen operations of the world (a timeout, a reservation,
   a put, an update of the running process's locals, ...).  [step kd pc0 p n w w'] lists them once, each with
   what is known where the blocks perform it; [reach kd pc0 p n w0 w] is "w is met while a block that started in
   w0 runs".  [block_reach] shows that this is all a block does.  A predicate on worlds that survives every
   [step] therefore survives every block, every resumption and every callback (section [Lift]): this is how the
   whole-factory invariants are lifted.  Section [Composed] does the same one level below, for the operations
   that are themselves compositions (a reservation, a cancellation, the loops over a node's edges, the two
   accounting routines, an edge's put and get). *)
From Coq Require Import List ZArith Lia Bool Arith.
From RecordUpdate Require Import RecordUpdate.
From FV Require Import Kernel World Factory.
From FV Require StoreB.
Import ListNotations.
Open Scope Z_scope.

(* the behaviour process of a machine / splitter / combiner is past the program points that initialise
   the node's state-time accounts *)
Definition past_init (kd : pkind) (pc : nat) : Prop :=
  match kd with KMachineB => (2 <= pc)%nat | KSplitterB | KCombinerB => (1 <= pc)%nat | _ => True end.
(* machines keep their accounts with update_state_rep, every other node with update_state *)
Definition machine_kind (kd : pkind) : Prop := kd = KMachineB \/ kd = KWorker.
Definition node_kind (kd : pkind) : Prop :=
  match kd with KSourceB | KSinkB | KSplitterB | KSplitWorker | KCombinerB | KCombWorker => True | _ => False end.
(* a process started by a block: at its first program point; a worker belongs to the node of the
   behaviour process that starts it *)
Definition spawn_ok (kd : pkind) (n : nat) (pr : proc) : Prop :=
  ppc pr = 0%nat /\
  match pkd pr with
  | KPush | KBufTimer | KFleetMove => True
  | KWorker => kd = KMachineB /\ pown pr = n
  | KSplitWorker => kd = KSplitterB /\ pown pr = n
  | KCombWorker => kd = KCombinerB /\ pown pr = n
  | _ => False
  end.

(* updates of single records that keep what the invariants look at *)
Record node_frame (f : node -> node) : Prop := {
  nf_nk : forall x, nk (f x) = nk x;
  nf_nblocking : forall x, nblocking (f x) = nblocking x;
  nf_nwcap : forall x, nwcap (f x) = nwcap x;
  nf_nres : forall x, nres (f x) = nres x;
  nf_ngen : forall x, ngen (f x) = ngen x;
  nf_ndisc : forall x, ndisc (f x) = ndisc x;
  nf_nrecv : forall x, nrecv (f x) = nrecv x;
  nf_ncycle : forall x, ncycle (f x) = ncycle x }.
Record accounts_frame (f : node -> node) : Prop := {
  af_ntstate : forall x, ntstate (f x) = ntstate x;
  af_nstate : forall x, nstate (f x) = nstate x;
  af_nlast : forall x, nlast (f x) = nlast x;
  af_nsrep : forall x, nsrep (f x) = nsrep x }.
Record proc_frame (f : proc -> proc) : Prop := {
  pf_pkd : forall x, pkd (f x) = pkd x;
  pf_pown : forall x, pown (f x) = pown x;
  pf_ppc : forall x, ppc (f x) = ppc x }.
Record edge_frame (f : edge -> edge) : Prop := {
  ef_est : forall x, est (f x) = est x;
  ef_elastn : forall x, elastn (f x) = elastn x }.

(* ------------------------------------------------------------------ operations composed of smaller ones:
   a predicate kept by the parts is kept by the whole *)
Section Composed.
Variable P : world -> Prop.
Hypothesis P_crashw : forall w c, P w -> P (crashw w c).
Hypothesis P_succeed : forall w e s, P w -> P (w_succeed w e s).

Lemma succeed_all_lift es : forall w, P w -> P (w_succeed_all w es).
Proof. unfold w_succeed_all. induction es as [|e es IH]; simpl; auto. Qed.
Lemma out_err_lift w r s : P w -> P (out_err w r s).
Proof. unfold out_err. intros H. destruct r; auto. destruct e; auto. Qed.
Lemma fleet_after_put_lift w e : P w -> P (fleet_after_put w e).
Proof. unfold fleet_after_put. intros H. destruct (_ =? _)%nat; auto. destruct (e_trig _); auto. Qed.

(* the two accounting routines update the accounts of node n, the second one perhaps followed by a crash *)
Section Accounts.
Variable n : nat.
Hypothesis P_upd_node : forall w f, node_frame f -> P w -> P (upd_node w n f).
Lemma update_state_lift w s : P w -> P (update_state w n s).
Proof.
  unfold update_state. intros H. apply P_upd_node; [constructor; reflexivity|].
  destruct (nlast _); [apply P_upd_node; [constructor; reflexivity|]|]; exact H.
Qed.
Lemma update_state_rep_lift w : P w -> P (update_state_rep w n).
Proof.
  unfold update_state_rep. intros H. destruct (nlast _); [|apply P_upd_node; [constructor; reflexivity|exact H]].
  destruct (nsrep _). destruct (count_threads _).
  destruct (_ >? _); [apply P_crashw|]; (apply P_upd_node; [constructor; reflexivity|exact H]).
Qed.
End Accounts.

(* a predicate that does not look at the edges: the put and the get of an edge, whatever its store answers *)
Section EdgeBlind.
Hypothesis P_upd_edge : forall w e f, P w -> P (upd_edge w e f).
Hypothesis P_buftimer : forall w e it d w1 pid dn,
  spawn w (proc0 <| pkd := KBufTimer |> <| pown := e |> <| pit := it |> <| pdl := d |>) = (w1, pid, dn) -> P w -> P w1.
Hypothesis P_moved : forall w x, (match x with LPut _ _ _ | LGet _ _ _ _ => True | _ => False end) -> P w -> P (logw w x).

Lemma put_lift w e p t i : P w -> P (e_put w e p t i).
Proof.
  unfold e_put, e_update_level. intros H. destruct (ek (get_edge w e)).
  - destruct (_ <? 0); [auto|].
    destruct (StoreB.step _ _) as [[s' r] ts]. destruct r; auto using out_err_lift.
    destruct (spawn _ _) as [[w2 pid] d] eqn:E. apply P_moved; [exact I|]. apply succeed_all_lift.
    eapply P_buftimer; [exact E|]. auto.
  - destruct (StoreB.step _ _) as [[s' r] ts]. destruct r; auto using out_err_lift.
    apply P_moved; [exact I|]. apply fleet_after_put_lift, succeed_all_lift. auto.
Qed.
Lemma get_lift w e p t n w1 r : e_get w e p t n = (w1, r) -> P w -> P w1.
Proof.
  unfold e_get, e_update_level. intros E H. destruct (StoreB.step _ _) as [[s' r0] ts].
  destruct r0 as [?| |?|e0]; try destruct e0; injection E as <- _; auto.
  apply P_moved; [exact I|]. apply succeed_all_lift. auto.
Qed.
End EdgeBlind.

(* [okop]: the store operations that keep P on their own *)
Variable okop : StoreB.op -> Prop.
Hypothesis P_event : forall w w1 e, w_event w = (w1, e) -> P w -> P w1.
Hypothesis P_store : forall w e o w1 r ts, store_op w e o = (w1, r, ts) -> okop o -> P w -> P w1.

Lemma reserve_put_lift w e p w1 t :
  (forall ev, okop (StoreB.Sync ev)) -> okop (StoreB.RPut p 0) -> e_reserve_put w e p = (w1, t) -> P w -> P w1.
Proof.
  unfold e_reserve_put. intros K1 K2 E H.
  destruct (w_event w) as [wa ev] eqn:E1. destruct (store_op wa e (StoreB.Sync ev)) as [[wb r1] t1] eqn:E2.
  destruct (store_op wb e (StoreB.RPut p 0)) as [[wc r2] t2] eqn:E3. injection E as <- _.
  apply succeed_all_lift. eauto.
Qed.
Lemma reserve_get_lift w e p w1 t :
  (forall ev, okop (StoreB.Sync ev)) -> okop (StoreB.RGet p 0) -> e_reserve_get w e p = (w1, t) -> P w -> P w1.
Proof.
  unfold e_reserve_get. intros K1 K2 E H.
  destruct (w_event w) as [wa ev] eqn:E1. destruct (store_op wa e (StoreB.Sync ev)) as [[wb r1] t1] eqn:E2.
  destruct (store_op wb e (StoreB.RGet p 0)) as [[wc r2] t2] eqn:E3. injection E as <- _.
  apply succeed_all_lift. eauto.
Qed.
Lemma cancel_put_lift w e t : okop (StoreB.CPut t) -> P w -> P (e_cancel_put w e t).
Proof.
  unfold e_cancel_put. intros K H. destruct (store_op w e (StoreB.CPut t)) as [[w1 r] ts] eqn:E.
  apply succeed_all_lift, out_err_lift. eauto.
Qed.
Lemma cancel_get_lift w e t : okop (StoreB.CGet t) -> P w -> P (e_cancel_get w e t).
Proof.
  unfold e_cancel_get. intros K H. destruct (store_op w e (StoreB.CGet t)) as [[w1 r] ts] eqn:E.
  apply succeed_all_lift, out_err_lift. eauto.
Qed.

Hypothesis P_cancel_put : forall w e t, P w -> P (e_cancel_put w e t).
Hypothesis P_cancel_get : forall w e t, P w -> P (e_cancel_get w e t).
Lemma cancel_others_lift w es ts keep put : P w -> P (cancel_others w es ts keep put).
Proof.
  unfold cancel_others. generalize (combine es ts). intros l. revert w.
  induction l as [|[e t] l IH]; simpl; auto. intros w H. apply IH.
  destruct (Nat.eqb t keep); auto. destruct put; auto.
Qed.
Hypothesis P_reserve_put : forall w e p w1 t, e_reserve_put w e p = (w1, t) -> P w -> P w1.
Hypothesis P_reserve_get : forall w e p w1 t, e_reserve_get w e p = (w1, t) -> P w -> P w1.
Lemma reserve_all_lift w pid es put w1 l1 : reserve_all w pid es put = (w1, l1) -> P w -> P w1.
Proof.
  unfold reserve_all. set (l := @nil nat) at 2. clearbody l. revert w l.
  induction es as [|e es IH]; cbn [fold_left]; intros w l E H.
  - injection E as <- _. exact H.
  - destruct put.
    + destruct (e_reserve_put w e pid) as [w' t] eqn:E1. eapply IH; [exact E|]. eauto.
    + destruct (e_reserve_get w e pid) as [w' t] eqn:E1. eapply IH; [exact E|]. eauto.
Qed.
End Composed.

(* a trace entry that is no movement and no counted event; a packing entry carries the time *)
Definition neutral_entry (t : Z) (x : tev) : Prop :=
  match x with LPack t' _ _ _ => t' = t | LSel _ _ _ | LDraw _ _ _ => True | _ => False end.

Definition discard (w : world) (n : nat) (t : Z) (i : nat) : world :=
  logw (upd_node w n (fun x => x <| ndisc ::= S |>)) (LDiscard t n i).

(* Who runs: the kind [kd] of the running process, its program counter [pc0] when the block starts, its
   index [p], and the node (for the processes of an edge: the edge) [n] it belongs to.
   The premises record what one of the lifted predicates needs to know at that operation:
   - a time written into the trace or an item is the clock ([t = wnow w]; [t] is a variable because the blocks
     read the clock off a world that differs from [w] syntactically), an item's creation stamp is only ever set by
     [set_creation], a reception reads it (FactoryStamp);
   - counters move together with their trace entry: [S_gen], [S_recv], and the discard below (FactoryCount);
   - the accounts of a node are written by [update_state] (nodes that are not machines; one of the six states, or
     the current one again), by [update_state_rep] (machines), and by the initialising updates [S_init], which happen
     before the behaviour process is [past_init] and never after ([S_setpc]); a worker is started by the behaviour
     process of its own node ([spawn_ok]) (FactoryAcct);
   - the store of an edge is changed by the edge operations only ([edge_frame]) (FactoryLevel, FactoryCons,
     FactoryQueue, FactoryTok). *)
Section Reach.
Variables (kd : pkind) (pc0 p n : nat).

Inductive step : world -> world -> Prop :=
| S_crash w cr : step w (crashw w cr)
| S_log w x : neutral_entry (wnow w) x -> step w (logw w x)
| S_new_item w it : i_creation it = None -> step w (w <| witems ::= fun l => l ++ [it] |>)
| S_gen w t i : t = wnow w -> step w (logw (upd_node w n (fun x => x <| ngen ::= S |>)) (LGen t n i))
| S_recv w t i cs : t = wnow w -> i_creation (get_item w i) = Some cs ->
    step w (logw (upd_node w n (fun x => x <| nrecv ::= S |> <| ncycle ::= fun v => v + (t - cs) |>)) (LRecv t n i cs))
| S_upd_proc w f : proc_frame f -> step w (upd_proc w p f)
| S_setpc w pc : (past_init kd pc0 -> past_init kd pc) -> step w (setpc w p pc)
| S_upd_item w i f : (forall x, i_creation (f x) = i_creation x) -> step w (upd_item w i f)
| S_set_creation w i m : step w (set_creation w i m)
| S_upd_node w f : node_frame f -> accounts_frame f -> step w (upd_node w n f)
| S_init w f : ~ past_init kd pc0 -> node_frame f -> step w (upd_node w n f)
| S_upd_edge w e f : edge_frame f -> step w (upd_edge w e f)
| S_update_state w st : node_kind kd -> (st < 6)%nat \/ st = nstate (get_node w n) -> step w (update_state w n st)
| S_update_state_rep w : machine_kind kd -> step w (update_state_rep w n)
| S_res_request w k r q : res_request (wk w) n (nres (get_node w n)) = Some (k, r, q) ->
    step w (upd_node (w <| wk := k |>) n (fun x => x <| nres := r |>))
| S_res_release w tok k r g : res_release (wk w) n (nres (get_node w n)) tok = Some (k, r, g) ->
    step w (upd_node (w <| wk := k |>) n (fun x => x <| nres := r |>))
| S_event w w1 e : w_event w = (w1, e) -> step w w1
| S_timeout w d w1 e : w_timeout w d = (w1, e) -> step w w1
| S_any_of w es w1 e : w_any_of w es = (w1, e) -> step w w1
| S_spawn w pr w1 pid dn : spawn_ok kd n pr -> spawn w pr = (w1, pid, dn) -> step w w1
| S_reserve_put w e pid w1 t : e_reserve_put w e pid = (w1, t) -> step w w1
| S_reserve_get w e pid w1 t : e_reserve_get w e pid = (w1, t) -> step w w1
| S_cancel_put w e t : step w (e_cancel_put w e t)
| S_cancel_get w e t : step w (e_cancel_get w e t)
| S_put w e pid tok item : step w (e_put w e pid tok item)
| S_get w e pid tok m w1 r : e_get w e pid tok m = (w1, r) -> step w w1
(* an item in transit becomes available: the Buffer's timer, and one item of a Fleet's batch *)
| S_ready w e it w1 r ts site : store_op w e (StoreB.Ready it) = (w1, r, ts) -> step w (w_succeed_all (out_err w1 r site) ts)
| S_fleet_ready w e it w1 r ts f site : edge_frame f -> store_op w e (StoreB.Ready it) = (w1, r, ts) ->
    step w (w_succeed_all (out_err (upd_edge w1 e f) r site) ts).

(* [reach w0 w]: w is met while a block started in w0 runs.  An item is only ever discarded by a node that
   was seen to be non-blocking at some world [w1] of the same block (FactoryDisc). *)
Inductive reach (w0 : world) : world -> Prop :=
| reach_refl : reach w0 w0
| reach_step w w' : reach w0 w -> step w w' -> reach w0 w'
| reach_discard w1 w t i : reach w0 w1 -> nblocking (get_node w1 n) = false -> reach w0 w -> t = wnow w ->
    reach w0 (discard w n t i).

Section Induction.
Variable P : world -> Prop.
Hypothesis P_step : forall w w', step w w' -> P w -> P w'.
Hypothesis P_discard : forall w1 w t i,
  P w1 -> nblocking (get_node w1 n) = false -> P w -> t = wnow w -> P (discard w n t i).
Lemma reach_lift w0 w : reach w0 w -> P w0 -> P w.
Proof. induction 1; eauto. Qed.
End Induction.

End Reach.

(* Splitting a block: every [let] / [match] / [if] is destructed; an equation that binds an intermediate
   world yields, through the constructor of its operation, that this world is reached ([op_reached]); the nested
   applications that remain are peeled from the outside by the hints of [rdb], one per operation, which also
   discharge the premise the constructor asks for. *)
Create HintDb rdb.
Ltac frame_side :=
  constructor; let x := fresh in intros x;
  first [reflexivity
        | repeat (match goal with
                  | |- context [if ?b then _ else _] => destruct b
                  | |- context [match ?b with _ => _ end] => destruct b
                  end); reflexivity].
Ltac pc_side :=
  let E := fresh in intros E;
  first [exact I | (simpl in *; lia) | exact E | match goal with F : forall pc, past_init _ pc |- _ => apply F end].
Ltac by_step c := eapply reach_step; [|c].

#[local] Hint Extern 2 (reach _ _ _ _ _ (crashw _ _)) => by_step ltac:(apply S_crash) : rdb.
#[local] Hint Extern 2 (reach _ _ _ _ _ (set_creation _ _ _)) => by_step ltac:(apply S_set_creation) : rdb.
#[local] Hint Extern 2 (reach _ _ _ _ _ (e_cancel_put _ _ _)) => by_step ltac:(apply S_cancel_put) : rdb.
#[local] Hint Extern 2 (reach _ _ _ _ _ (e_cancel_get _ _ _)) => by_step ltac:(apply S_cancel_get) : rdb.
#[local] Hint Extern 2 (reach _ _ _ _ _ (e_put _ _ _ _ _)) => by_step ltac:(apply S_put) : rdb.
#[local] Hint Extern 2 (reach _ _ _ _ _ (logw _ _)) => by_step ltac:(apply S_log; first [exact I | reflexivity]) : rdb.
#[local] Hint Extern 2 (reach _ _ _ _ _ (upd_proc _ _ _)) => by_step ltac:(apply S_upd_proc; frame_side) : rdb.
#[local] Hint Extern 2 (reach _ _ _ _ _ (setpc _ _ _)) => by_step ltac:(apply S_setpc; pc_side) : rdb.
#[local] Hint Extern 2 (reach _ _ _ _ _ (upd_item _ _ _)) => by_step ltac:(apply S_upd_item; intros ?; reflexivity) : rdb.
#[local] Hint Extern 3 (reach _ _ _ _ _ (upd_node _ _ _)) => by_step ltac:(apply S_upd_node; frame_side) : rdb.
#[local] Hint Extern 2 (reach _ _ _ _ _ (upd_edge _ _ _)) => by_step ltac:(apply S_upd_edge; frame_side) : rdb.
#[local] Hint Extern 2 (reach _ _ _ _ _ (update_state _ _ _)) =>
  by_step ltac:(apply S_update_state; [first [exact I | assumption]
                                      |first [left; unfold ST_SETUP, ST_GEN, ST_BLOCKED; lia | right; reflexivity]]) : rdb.
#[local] Hint Extern 2 (reach _ _ _ _ _ (update_state_rep _ _)) =>
  by_step ltac:(apply S_update_state_rep; first [left; reflexivity | right; reflexivity]) : rdb.
#[local] Hint Extern 1 (reach _ _ _ _ _ (logw (upd_node _ _ _) (LGen _ _ _))) => by_step ltac:(apply S_gen; reflexivity) : rdb.
#[local] Hint Extern 1 (reach _ _ _ _ _ (logw (upd_node _ _ _) (LRecv _ _ _ _))) =>
  by_step ltac:(eapply S_recv; [reflexivity|eassumption]) : rdb.
#[local] Hint Extern 1 (reach _ _ _ _ _ (logw (upd_node _ _ _) (LDiscard _ _ _))) =>
  (eapply reach_discard; [|eassumption| |reflexivity]) : rdb.
#[local] Hint Extern 2 (reach _ _ _ _ _ (set witems _ _)) => by_step ltac:(apply S_new_item; reflexivity) : rdb.
#[local] Hint Extern 4 (reach _ _ _ _ _ (upd_node _ _ _)) => by_step ltac:(apply S_init; [simpl; lia|frame_side]) : rdb.
#[local] Hint Extern 1 (reach _ _ _ _ _ (w_succeed_all (out_err _ _ _) _)) => by_step ltac:(eapply S_ready; eassumption) : rdb.

Ltac reached w1 c :=
  lazymatch goal with
  | |- reach ?kd ?pc0 ?p ?n ?w0 _ => assert (reach kd pc0 p n w0 w1) by (eapply reach_step; [|c]; auto 14 with rdb)
  end.
Ltac op_reached :=
  match goal with
  | E : w_timeout ?w _ = (?w1, _) |- _ => reached w1 ltac:(eapply S_timeout; exact E); clear E
  | E : w_event ?w = (?w1, _) |- _ => reached w1 ltac:(eapply S_event; exact E); clear E
  | E : w_any_of ?w _ = (?w1, _) |- _ => reached w1 ltac:(eapply S_any_of; exact E); clear E
  | E : spawn ?w _ = (?w1, _, _) |- _ =>
      reached w1 ltac:(eapply S_spawn; [|exact E]; split; [reflexivity|cbn; auto]); clear E
  | E : e_reserve_put ?w _ _ = (?w1, _) |- _ => reached w1 ltac:(eapply S_reserve_put; exact E); clear E
  | E : e_reserve_get ?w _ _ = (?w1, _) |- _ => reached w1 ltac:(eapply S_reserve_get; exact E); clear E
  | E : e_get ?w _ _ _ _ = (?w1, _) |- _ => reached w1 ltac:(eapply S_get; exact E); clear E
  end.

Section Blocks.
Variables (p n : nat) (w0 : world).
Notation RC kd pc0 := (reach kd pc0 p n w0).

Lemma out_err_r kd pc0 w r s : RC kd pc0 w -> RC kd pc0 (out_err w r s).
Proof. apply out_err_lift; auto with rdb. Qed.
Lemma draw_delay_r kd pc0 w w1 d : draw_delay w n = (w1, d) -> RC kd pc0 w -> RC kd pc0 w1.
Proof. unfold draw_delay. intros [= <- _] H. auto with rdb. Qed.
Lemma draw_sel_r kd pc0 w o w1 v : draw_sel w n o = (w1, v) -> RC kd pc0 w -> RC kd pc0 w1.
Proof.
  unfold draw_sel. intros E H.
  destruct (if o then noutsel _ else ninsel _); inversion E; subst; auto; destruct o; auto with rdb.
Qed.
Lemma occupancy_r kd pc0 w a : RC kd pc0 w -> RC kd pc0 (occupancy w n a).
Proof. intros H. unfold occupancy. auto with rdb. Qed.
Lemma set_thread_r kd pc0 w q b : RC kd pc0 w -> RC kd pc0 (set_thread w n q b).
Proof. intros H. unfold set_thread. auto with rdb. Qed.
Lemma add_blocked_time_r kd pc0 w q : RC kd pc0 w -> RC kd pc0 (add_blocked_time w q n).
Proof. intros H. unfold add_blocked_time. auto with rdb. Qed.

Lemma cancel_others_r kd pc0 w es ts keep put : RC kd pc0 w -> RC kd pc0 (cancel_others w es ts keep put).
Proof. apply cancel_others_lift; auto with rdb. Qed.
Lemma reserve_all_r kd pc0 w pid es put w1 l1 : reserve_all w pid es put = (w1, l1) -> RC kd pc0 w -> RC kd pc0 w1.
Proof. apply reserve_all_lift; intros * E H; (eapply reach_step; [exact H|]); [eapply S_reserve_put|eapply S_reserve_get]; exact E. Qed.

Lemma check_state_r kd pc0 w : node_kind kd -> RC kd pc0 w -> RC kd pc0 (check_state w n).
Proof.
  intros K H. unfold check_state. destruct (count_threads _).
  repeat match goal with |- context [if ?b then _ else _] => destruct b end; auto with rdb.
Qed.
#[local] Hint Resolve out_err_r occupancy_r set_thread_r add_blocked_time_r cancel_others_r : rdb.
#[local] Hint Extern 2 (reach _ _ _ _ _ (check_state _ _)) => (apply check_state_r; [first [exact I | assumption]|]) : rdb.

Lemma spawn_push_r kd pc0 w i e b : RC kd pc0 w -> RC kd pc0 (fst (spawn_push w n i e b)).
Proof.
  intros H. unfold spawn_push. destruct (spawn _ _) as [[w1 pid] dn] eqn:E. cbn [fst].
  by_step ltac:(eapply S_spawn; [|exact E]; split; [reflexivity|exact I]). exact H.
Qed.
#[local] Hint Resolve spawn_push_r : rdb.
Lemma reach_fst {A} kd pc0 (f : world * A) w1 a : f = (w1, a) -> RC kd pc0 (fst f) -> RC kd pc0 w1.
Proof. intros ->. auto. Qed.

Ltac sub_reached :=
  lazymatch goal with
  | |- reach ?kd ?pc0 _ _ _ _ =>
    match goal with
    | E : draw_delay ?w _ = (?w1, _) |- _ => assert (RC kd pc0 w1) by (eapply draw_delay_r; [exact E|auto 14 with rdb]); clear E
    | E : draw_sel ?w _ _ = (?w1, _) |- _ => assert (RC kd pc0 w1) by (eapply draw_sel_r; [exact E|auto 14 with rdb]); clear E
    | E : reserve_all ?w _ _ _ = (?w1, _) |- _ => assert (RC kd pc0 w1) by (eapply reserve_all_r; [exact E|auto 14 with rdb]); clear E
    | E : spawn_push ?w _ _ _ _ = (?w1, _) |- _ =>
        assert (RC kd pc0 w1) by (eapply reach_fst; [exact E|apply spawn_push_r; auto 14 with rdb]); clear E
    end
  end.
Ltac ksplit :=
  repeat (cbv zeta;
          match goal with
          | |- context [match ?x with _ => _ end] => destruct x eqn:?; repeat (op_reached || sub_reached); cbn [fst snd]
          end).
Ltac kgo := ksplit; cbn [fst snd]; auto 14 with rdb.

Lemma source_loop_r pc0 w : RC KSourceB pc0 w -> RC KSourceB pc0 (fst (source_loop w p n)).
Proof. intros H. unfold source_loop. kgo. Qed.
Lemma sink_loop_r pc0 w : RC KSinkB pc0 w -> RC KSinkB pc0 (fst (sink_loop w p n)).
Proof. intros H. unfold sink_loop. kgo. Qed.
#[local] Hint Resolve source_loop_r sink_loop_r : rdb.

Lemma machine_request_r pc0 w : RC KMachineB pc0 w -> RC KMachineB pc0 (fst (machine_request w p n)).
Proof.
  intros H. unfold machine_request. cbv zeta.
  assert (RC KMachineB pc0 (update_state_rep w n)) as H1 by auto with rdb.
  destruct (res_request _ _ _) as [[[k r] q]|] eqn:E; cbn [fst]; [|auto with rdb].
  by_step ltac:(apply S_setpc; pc_side). by_step ltac:(apply S_upd_proc; frame_side). by_step ltac:(eapply S_res_request; exact E). exact H1.
Qed.
#[local] Hint Resolve machine_request_r : rdb.
Lemma machine_start_worker_r pc0 w i : RC KMachineB pc0 w -> RC KMachineB pc0 (fst (machine_start_worker w p n i)).
Proof. intros H. unfold machine_start_worker. kgo. Qed.
#[local] Hint Resolve machine_start_worker_r : rdb.

Lemma worker_release_r pc0 w : RC KWorker pc0 w -> RC KWorker pc0 (fst (worker_release w p n)).
Proof.
  intros H. unfold worker_release. cbv zeta.
  destruct (res_release _ _ _ _) as [[[k r] g]|] eqn:E; cbn [fst]; [|auto with rdb].
  by_step ltac:(apply S_setpc; pc_side). by_step ltac:(eapply S_res_release; exact E). exact H.
Qed.
#[local] Hint Resolve worker_release_r : rdb.

Lemma fleet_loop_r pc0 w e : RC KFleetAct pc0 w -> RC KFleetAct pc0 (fst (fleet_loop w p e)).
Proof. intros H. unfold fleet_loop. kgo. Qed.
#[local] Hint Resolve fleet_loop_r : rdb.

Lemma sc_request_r kd pc0 w pc : (past_init kd pc0 -> past_init kd pc) -> RC kd pc0 w -> RC kd pc0 (fst (sc_request w p n pc)).
Proof.
  intros K H. unfold sc_request.
  destruct (res_request _ _ _) as [[[k r] q]|] eqn:E; cbn [fst]; [|auto with rdb].
  by_step ltac:(apply S_setpc; exact K). by_step ltac:(apply S_upd_proc; frame_side). by_step ltac:(eapply S_res_request; exact E). exact H.
Qed.

(* the workers of a splitter and of a combiner share their dispatch *)
Definition sc_worker (kd : pkind) : Prop := kd = KSplitWorker \/ kd = KCombWorker.
Lemma sc_worker_kind kd : sc_worker kd -> node_kind kd /\ forall pc, past_init kd pc.
Proof. intros [-> | ->]; split; try intros ?; exact I. Qed.

Lemma sc_release_r kd pc0 w : sc_worker kd -> RC kd pc0 w -> RC kd pc0 (fst (sc_release w p n)).
Proof.
  intros K H. unfold sc_release.
  destruct (res_release _ _ _ _) as [[[k r] g]|] eqn:E; cbn [fst]; [|auto with rdb].
  destruct (sc_worker_kind kd K) as (_ & F). by_step ltac:(apply S_setpc; pc_side). by_step ltac:(eapply S_res_release; exact E). exact H.
Qed.
#[local] Hint Extern 2 (reach _ _ _ _ _ (fst (sc_release _ _ _))) => (apply sc_release_r; [assumption|]) : rdb.

Lemma sc_dispatch_r kd pc0 w cur ph : sc_worker kd -> RC kd pc0 w -> RC kd pc0 (fst (sc_dispatch w p n cur ph)).
Proof. intros K H. destruct (sc_worker_kind kd K) as (NK & F). unfold sc_dispatch. kgo. Qed.
#[local] Hint Extern 2 (reach _ _ _ _ _ (fst (sc_dispatch _ _ _ _ _))) => (apply sc_dispatch_r; [assumption|]) : rdb.
Lemma sc_next_r kd pc0 w : sc_worker kd -> RC kd pc0 w -> RC kd pc0 (fst (sc_next w p n)).
Proof. intros K H. unfold sc_next. kgo. Qed.
#[local] Hint Extern 2 (reach _ _ _ _ _ (fst (sc_next _ _ _))) => (apply sc_next_r; [assumption|]) : rdb.
Lemma sc_worker_cont_r kd pc0 w : sc_worker kd -> RC kd pc0 w -> RC kd pc0 (fst (sc_worker_cont w p n)).
Proof. intros K H. destruct (sc_worker_kind kd K) as (NK & F). unfold sc_worker_cont. kgo. Qed.
Lemma sc_run_r kd pc0 f : sc_worker kd -> forall w r, RC kd pc0 (fst r) -> RC kd pc0 (fst (sc_run f w p n r)).
Proof.
  intros K. induction f as [|f IH]; simpl; intros w r H; [auto with rdb|].
  destruct r as [w1 y]. cbn [fst] in *. destruct (wcrash w1); auto.
  destruct (Nat.eqb _ 8); auto. destruct (sc_worker_kind kd K) as (_ & F). apply IH. apply sc_next_r; [exact K|]. auto with rdb.
Qed.

Lemma splitter_head_r pc0 w : RC KSplitterB pc0 w -> RC KSplitterB pc0 (fst (splitter_head w p n)).
Proof. intros H. unfold splitter_head. kgo. Qed.
#[local] Hint Resolve splitter_head_r : rdb.
Lemma splitter_start_r pc0 w pal : RC KSplitterB pc0 w -> RC KSplitterB pc0 (fst (splitter_start w p n pal)).
Proof. intros H. unfold splitter_start. kgo. Qed.

Lemma combiner_head_r pc0 w : RC KCombinerB pc0 w -> RC KCombinerB pc0 (fst (combiner_head w p n)).
Proof. intros H. unfold combiner_head. apply sc_request_r; [simpl; lia|auto with rdb]. Qed.
#[local] Hint Resolve combiner_head_r : rdb.
Lemma comb_rep_r kd pc0 e q k0 j : forall a, RC kd pc0 (fst (fst a)) -> RC kd pc0 (fst (fst (comb_rep e q k0 j a))).
Proof.
  induction j as [|j IH]; intros [[w1 ts] ix] H; simpl; auto.
  destruct (e_reserve_get w1 e q) as [w2 t] eqn:E. apply IH. cbn [fst]. by_step ltac:(eapply S_reserve_get; exact E). exact H.
Qed.
Lemma comb_go_r kd pc0 rc q es : forall k acc r, RC kd pc0 (fst (fst acc)) -> comb_go rc q k es acc = Some r -> RC kd pc0 (fst (fst r)).
Proof.
  induction es as [|e es IH]; simpl; intros k acc r HA EQ.
  - inversion EQ; subst; auto.
  - destruct (nth_error rc k) as [q0|]; [|discriminate]. eapply IH; [|exact EQ]. apply comb_rep_r. exact HA.
Qed.
Lemma combiner_reserve_r kd pc0 w q m w1 a b : combiner_reserve w q m = Some (w1, a, b) -> RC kd pc0 w -> RC kd pc0 w1.
Proof. unfold combiner_reserve. intros E H. exact (comb_go_r kd pc0 _ _ _ _ (w, [], []) _ H E). Qed.
Lemma combiner_loop_r pc0 w : RC KCombinerB pc0 w -> RC KCombinerB pc0 (fst (combiner_loop w p n)).
Proof. intros H. unfold combiner_loop. kgo. Qed.
#[local] Hint Resolve splitter_start_r combiner_loop_r : rdb.

(* the blocks: [pc0] is the program counter the block finds, [n] the owner of the process *)
Ltac enter EP EN := intros EP EN; cbv zeta; unfold me in *; rewrite ?EN, ?EP.

Lemma source_block_r pc0 w : pown (me w p) = n -> RC KSourceB pc0 w -> RC KSourceB pc0 (fst (source_block w p)).
Proof. unfold source_block. intros EN H. cbv zeta. unfold me in *. rewrite ?EN. kgo. Qed.
Lemma push_block_r pc0 w : RC KPush pc0 w -> RC KPush pc0 (fst (push_block w p)).
Proof. intros H. unfold push_block. kgo. Qed.
Lemma buftimer_block_r pc0 w : RC KBufTimer pc0 w -> RC KBufTimer pc0 (fst (buftimer_block w p)).
Proof. intros H. unfold buftimer_block. kgo. Qed.
Lemma sink_block_r pc0 w : pown (me w p) = n -> RC KSinkB pc0 w -> RC KSinkB pc0 (fst (sink_block w p)).
Proof. unfold sink_block. intros EN H. cbv zeta. unfold me in *. rewrite ?EN. kgo. Qed.
Lemma machine_block_r pc0 w : ppc (me w p) = pc0 -> pown (me w p) = n -> RC KMachineB pc0 w -> RC KMachineB pc0 (fst (machine_block w p)).
Proof. unfold machine_block. enter EP EN. intros H. destruct pc0 as [|[|pc]]; kgo. Qed.
Lemma worker_block_r pc0 w : pown (me w p) = n -> RC KWorker pc0 w -> RC KWorker pc0 (fst (worker_block w p)).
Proof. unfold worker_block. intros EN H. cbv zeta. unfold me in *. rewrite ?EN. kgo. Qed.

Lemma fleetact_block_r pc0 w : RC KFleetAct pc0 w -> RC KFleetAct pc0 (fst (fleetact_block w p)).
Proof.
  intros H. unfold fleetact_block. cbv zeta.
  destruct (ppc (me w p)); [auto with rdb|].
  destruct (StoreB.transit _) eqn:ET; [auto with rdb|].
  match goal with |- context [fleet_loop (if _ then _ else ?w1) _ _] => set (wb := w1) end.
  assert (RC KFleetAct pc0 wb) as H1.
  { subst wb. match goal with |- reach _ _ _ _ _ (match ?b with _ => _ end) => destruct b end; auto.
    destruct (spawn _ _) as [[w2 pid] d] eqn:E. by_step ltac:(eapply S_spawn; [|exact E]; split; [reflexivity|exact I]). auto with rdb. }
  clearbody wb. kgo.
Qed.

Lemma fleetmove_fold_r pc0 e l : forall w, RC KFleetMove pc0 w ->
  RC KFleetMove pc0 (fold_left (fun (w : world) (it : nat) =>
                    match wcrash w with
                    | Some _ => w
                    | None =>
                        let '(w1, r, ts) := store_op w e (StoreB.Ready it) in
                        let w2 := upd_edge w1 e (fun x => x <| eintransit ::= filter (fun t => negb (Nat.eqb t it)) |>) in
                        w_succeed_all (out_err w2 r 61) ts
                    end) l w).
Proof.
  induction l as [|x l IH]; simpl; auto. intros w H. apply IH.
  destruct (wcrash w); auto. destruct (store_op w e (StoreB.Ready x)) as [[w1 r] ts] eqn:E.
  by_step ltac:(eapply S_fleet_ready; [frame_side|exact E]). exact H.
Qed.
Lemma fleetmove_block_r pc0 w : RC KFleetMove pc0 w -> RC KFleetMove pc0 (fst (fleetmove_block w p)).
Proof.
  intros H. unfold fleetmove_block. cbv zeta.
  destruct (ppc (me w p)) as [|[|?]]; cbn [fst]; [kgo|kgo|apply fleetmove_fold_r; exact H].
Qed.

Lemma splitter_block_r pc0 w : ppc (me w p) = pc0 -> pown (me w p) = n -> RC KSplitterB pc0 w -> RC KSplitterB pc0 (fst (splitter_block w p)).
Proof.
  unfold splitter_block. enter EP EN. intros H. destruct pc0 as [|[|[|[|[|pc]]]]]; kgo;
    (apply sc_request_r; [simpl; lia|auto 14 with rdb]).
Qed.
Lemma splitworker_block_r pc0 w : pown (me w p) = n -> RC KSplitWorker pc0 w -> RC KSplitWorker pc0 (fst (splitworker_block w p)).
Proof.
  intros EN H. unfold splitworker_block. cbv zeta. unfold me in *. rewrite EN.
  assert (K : sc_worker KSplitWorker) by (left; reflexivity).
  destruct (ppc (get_proc w p)) as [|[|?]].
  - kgo.
  - match goal with |- context [if ?b then _ else _] => destruct b end; cbn [fst]; [auto with rdb|].
    apply sc_run_r; [exact K|]. auto 12 with rdb.
  - apply sc_run_r; [exact K|]. apply sc_worker_cont_r; assumption.
Qed.
Lemma combworker_block_r pc0 w : pown (me w p) = n -> RC KCombWorker pc0 w -> RC KCombWorker pc0 (fst (combworker_block w p)).
Proof.
  intros EN H. unfold combworker_block. cbv zeta. unfold me in *. rewrite EN.
  assert (K : sc_worker KCombWorker) by (right; reflexivity).
  destruct (ppc (get_proc w p)); apply sc_run_r; try exact K; [auto with rdb|apply sc_worker_cont_r; assumption].
Qed.

Lemma combiner_block_r pc0 w : ppc (me w p) = pc0 -> pown (me w p) = n -> RC KCombinerB pc0 w -> RC KCombinerB pc0 (fst (combiner_block w p)).
Proof.
  unfold combiner_block. enter EP EN. intros H. destruct pc0 as [|[|[|[|[|[|pc]]]]]].
  - kgo.
  - auto with rdb.
  - destruct (e_get _ _ _ _ _) as [w1 it] eqn:E. assert (RC KCombinerB 2 w1) by (by_step ltac:(eapply S_get; exact E); exact H).
    destruct it; cbn [fst]; auto. destruct (negb _); cbn [fst]; auto with rdb.
    destruct (combiner_reserve w1 p n) as [[[w2 a] b]|] eqn:E2; cbn [fst]; auto with rdb.
    assert (RC KCombinerB 2 w2) by (eapply combiner_reserve_r; eauto). kgo.
  - auto with rdb.
  - kgo.
  - kgo.
  - kgo.
Qed.
End Blocks.

(* a block only performs the operations listed in [step] *)
Theorem block_reach w p : reach (pkd (me w p)) (ppc (me w p)) p (pown (me w p)) w (fst (block w p)).
Proof.
  unfold block. pose proof (reach_refl (pkd (me w p)) (ppc (me w p)) p (pown (me w p)) w) as H. revert H.
  destruct (pkd (me w p)); intros H;
    first [apply source_block_r | apply machine_block_r | apply worker_block_r | apply sink_block_r | apply push_block_r
          | apply buftimer_block_r | apply fleetact_block_r | apply fleetmove_block_r | apply splitter_block_r
          | apply splitworker_block_r | apply combiner_block_r | apply combworker_block_r]; auto.
Qed.

Section Lift.
Variable P : world -> Prop.
Hypothesis P_step : forall kd pc0 p n w w', step kd pc0 p n w w' -> P w -> P w'.
Hypothesis P_discard : forall n w1 w t i,
  P w1 -> nblocking (get_node w1 n) = false -> P w -> t = wnow w -> P (discard w n t i).

Theorem block_lift w p : P w -> P (fst (block w p)).
Proof. apply (reach_lift _ _ _ _ P (P_step _ _ _ _) (P_discard _) _ _ (block_reach w p)). Qed.

(* ... and so for a part of a block; the premise has the shape of the [_r] lemmas above *)
Lemma sub_lift kd pc0 p n w w' : (reach kd pc0 p n w w -> reach kd pc0 p n w w') -> P w -> P w'.
Proof. intros R. exact (reach_lift _ _ _ _ P (P_step _ _ _ _) (P_discard _) _ _ (R (reach_refl _ _ _ _ _))). Qed.

Hypothesis P_crash : forall w c, P w -> P (crashw w c).
Hypothesis P_active : forall w p, P w -> P (w <| wactive := p |>).
Hypothesis P_wait : forall w e p, P w -> P (w <| wk := add_cb (wk w) e (CbResume p) |>).
Hypothesis P_done : forall w p d, P w ->
  P (upd_proc (w <| wk := schedule (mark_trig (wk w) d) d NORMAL 0 |>) p (fun x => x <| palive := false |>)).
Hypothesis P_check : forall w c, P w -> P (w <| wk := check (wk w) c |>).
Hypothesis P_res_trig_get : forall w n k r, res_trig_get (wk w) (nres (get_node w n)) = Some (k, r) -> P w ->
  P (upd_node (w <| wk := k |>) n (fun x => x <| nres := r |>)).
Hypothesis P_res_trig_put : forall w n k r, res_trig_put (wk w) (nres (get_node w n)) = Some (k, r) -> P w ->
  P (upd_node (w <| wk := k |>) n (fun x => x <| nres := r |>)).

Lemma resume_lift f : forall w p, P w -> P (resume f w p).
Proof.
  induction f as [|f IH]; simpl; intros w p H; auto.
  destruct (wcrash w); auto.
  pose proof (block_lift (w <| wactive := p |>) p (P_active w p H)) as B.
  destruct (block (w <| wactive := p |>) p) as [w1 y]. cbn [fst] in B.
  destruct (wcrash w1); auto. destruct y; auto. destruct (e_proc _); auto.
Qed.

Lemma run_cb_lift w c : P w -> P (run_cb w c).
Proof.
  intros H. unfold run_cb. destruct (wcrash w); auto. destruct c; auto.
  - destruct (_ <? _)%nat; auto using resume_lift.
  - destruct (res_trig_get _ _) as [[k0 r0]|] eqn:E; auto.
  - destruct (res_trig_put _ _) as [[k0 r0]|] eqn:E; auto.
Qed.

Lemma run_cbs_lift l : forall w, P w -> P (fold_left run_cb l w).
Proof. induction l as [|c l IH]; simpl; auto using run_cb_lift. Qed.
End Lift.
