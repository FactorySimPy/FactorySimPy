(* Whole-factory invariant for C18: in every reachable, un-crashed world of every configuration the
   occupancy an edge's time-average accumulator is integrating (its last recorded level) is the true
   number of items in the edge -- the level is re-recorded at every change of occupancy.  The predicate
   survives every operation of the world (put and get as a whole: inside them it is broken for a moment);
   Steps.v and FactoryInv.v lift that to every run. *)
From Coq Require Import List ZArith Lia Bool Arith Permutation.
From RecordUpdate Require Import RecordUpdate.
From FV Require Import Kernel World Factory Steps.
From FV Require FactoryInv FactoryCons.
From FV Require StoreB.
Import ListNotations.
Open Scope Z_scope.

Definition occ (s : StoreB.store) : nat := (length (StoreB.transit s) + length (StoreB.ready s))%nat.
Definition EOK (ed : edge) : Prop := elastn ed = Z.of_nat (occ (est ed)).
Definition EC (w : world) : Prop := wcrash w = None -> Forall EOK (wedges w).

(* ------------------------------------------------------------------ occupancy of a store under its operations *)
Definition neutral (o : StoreB.op) : bool :=
  match o with StoreB.Put _ _ _ | StoreB.Get _ _ | StoreB.Ready _ => false | _ => true end.

(* the occupancy is the number of items the store contains: the facts about the contents (FactoryCons) give those
   about the occupancy *)
Lemma occ_cont s : occ s = length (FactoryCons.cont s).
Proof. unfold occ, FactoryCons.cont. rewrite app_length. reflexivity. Qed.

Lemma neutral_occ s o s' r ts : neutral o = true -> StoreB.step s o = (s', r, ts) -> occ s' = occ s.
Proof. intros N E. rewrite !occ_cont, (FactoryCons.neutral_cont s o s' r ts N E). reflexivity. Qed.

Lemma put_occ s p t i s' r ts : StoreB.step s (StoreB.Put p t i) = (s', r, ts) ->
  (r = StoreB.OOk -> occ s' = S (occ s)) /\ (r <> StoreB.OOk -> occ s' = occ s).
Proof.
  intros E. destruct (FactoryCons.put_cont _ _ _ _ _ _ _ E) as (A & B). rewrite !occ_cont. split; intros H.
  - rewrite (Permutation_length (A H)), app_length. simpl. lia.
  - rewrite (B H). reflexivity.
Qed.

Lemma get_occ s p t s' r ts : StoreB.step s (StoreB.Get p t) = (s', r, ts) ->
  match r with StoreB.OItem _ => S (occ s') = occ s | _ => s' = s end.
Proof.
  intros E. pose proof (FactoryCons.get_cont _ _ _ _ _ _ E) as G. destruct r; auto.
  rewrite !occ_cont, (Permutation_length G). reflexivity.
Qed.

Lemma ready_occ s i s' r ts : StoreB.step s (StoreB.Ready i) = (s', r, ts) ->
  match r with StoreB.OOk => occ s' = occ s | StoreB.OErr _ => True | _ => False end.
Proof.
  intros E. pose proof (FactoryCons.ready_cont _ _ _ _ _ E) as G. destruct r; auto.
  rewrite !occ_cont. apply Permutation_length, G.
Qed.

(* ------------------------------------------------------------------ the world's primitives *)
Create HintDb edb.

Lemma crashw_e w c : EC (crashw w c).
Proof.
  unfold EC, crashw. destruct (wcrash w) eqn:E; [rewrite E; discriminate|]. cbn. discriminate.
Qed.
(* once crashed, always crashed: what a primitive may do to the crash flag *)
Lemma EC_of w w' : (wcrash w' = None -> wcrash w = None) -> wedges w' = wedges w -> EC w -> EC w'.
Proof. unfold EC. intros A B H C. rewrite B. auto. Qed.

Lemma upd_edge_all w e f : (forall x, EOK x -> EOK (f x)) -> EC w -> EC (upd_edge w e f).
Proof. unfold EC, upd_edge. intros K H C. cbn [wedges set]. simpl. apply upd_forall; auto. Qed.
Lemma upd_edge_at w e f : (EOK (get_edge w e) -> EOK (f (get_edge w e))) -> EC w -> EC (upd_edge w e f).
Proof. intros K H C. unfold upd_edge. cbn [wedges set]. simpl. apply (upd_forall_at _ _ _ _ edge0); auto. Qed.
Lemma EC_get w e : EC w -> wcrash w = None -> EOK (get_edge w e).
Proof.
  unfold EC, get_edge. intros H C. specialize (H C). destruct (nth_error (wedges w) e) as [x|] eqn:E.
  - rewrite (nth_error_nth _ _ edge0 E). eapply Forall_forall; [exact H|]. eapply nth_error_In; eauto.
  - rewrite nth_overflow; [|apply nth_error_None; exact E]. unfold EOK, edge0, occ; simpl. reflexivity.
Qed.

Lemma logw_e w x : EC w -> EC (logw w x).
Proof. auto. Qed.
Lemma upd_node_e w e f : EC w -> EC (upd_node w e f).
Proof. auto. Qed.
Lemma upd_proc_e w e f : EC w -> EC (upd_proc w e f).
Proof. auto. Qed.
Lemma upd_item_e w e f : EC w -> EC (upd_item w e f).
Proof. auto. Qed.
Lemma setpc_e w p pc : EC w -> EC (setpc w p pc).
Proof. auto. Qed.
#[local] Hint Resolve crashw_e logw_e upd_node_e upd_proc_e upd_item_e setpc_e : edb.
Ltac eok_side :=
  let x := fresh in let Hx := fresh in intros x Hx;
  first [exact Hx
        | repeat (match goal with
                  | |- context [if ?b then _ else _] => destruct b
                  | |- context [match ?b with _ => _ end] => destruct b
                  end); exact Hx].
#[local] Hint Extern 3 (EC (upd_edge _ _ _)) => (apply upd_edge_all; [eok_side|]) : edb.

Lemma w_succeed_e w e s : EC w -> EC (w_succeed w e s).
Proof.
  unfold w_succeed. intros H. destruct (succeed (wk w) e) eqn:E; [exact H|apply crashw_e; auto].
Qed.
#[local] Hint Resolve w_succeed_e : edb.

Lemma w_succeed_all_e es : forall w, EC w -> EC (w_succeed_all w es).
Proof. apply succeed_all_lift; eauto using crashw_e, w_succeed_e. Qed.
#[local] Hint Resolve w_succeed_all_e : edb.

Lemma w_event_e w w1 e : w_event w = (w1, e) -> EC w -> EC w1.
Proof. unfold w_event. simpl. intros [= <- _] H. exact H. Qed.

Lemma w_timeout_e w d w1 e : w_timeout w d = (w1, e) -> EC w -> EC w1.
Proof.
  unfold w_timeout. destruct (d <? 0).
  - intros [= <- _] H. auto with edb.
  - destruct (timeout (wk w) d) as [k e0]. intros [= <- _] H. exact H.
Qed.

Lemma w_any_of_e w es w1 c : w_any_of w es = (w1, c) -> EC w -> EC w1.
Proof.
  unfold w_any_of. destruct (any_of (wk w) es) as [k e0]. intros [= <- _] H. exact H.
Qed.

Lemma spawn_e w p w1 pid d : spawn w p = (w1, pid, d) -> EC w -> EC w1.
Proof.
  unfold spawn. intros E H.
  destruct (w_event w) as [wa done] eqn:E1. destruct (w_event wa) as [wb ini] eqn:E2.
  inversion E; subst. clear E.
  assert (EC wb) as Hb by (eapply w_event_e; [exact E2|]; eapply w_event_e; [exact E1|]; exact H). exact Hb.
Qed.

Lemma upd_id {A} n : forall (l : list A), upd n (fun x => x) l = l.
Proof. induction n as [|n IH]; intros [|x l]; simpl; auto. f_equal. apply IH. Qed.

Lemma e_update_level_e w e : EC w -> EC (e_update_level w e).
Proof.
  intros H. unfold e_update_level. apply upd_edge_at; auto. intros _. unfold EOK, occ. cbn. rewrite Nat2Z.inj_add. reflexivity.
Qed.

(* replacing the store of edge e by one with the same occupancy *)
Lemma set_est_e w e s' : EC w -> (wcrash w = None -> occ s' = occ (est (get_edge w e))) ->
  EC (upd_edge w e (fun x => x <| est := s' |>)).
Proof.
  intros H K. unfold EC, upd_edge. cbn [wedges wcrash set]. simpl. intros C. apply upd_forall; [apply H, C|].
  intros x E Hx. unfold EOK in *. cbn. rewrite Hx. f_equal. specialize (K C). unfold get_edge in K.
  rewrite (nth_error_nth _ _ edge0 E) in K. symmetry. exact K.
Qed.
(* replacing it by any store and re-recording the level, as _do_put / _do_get do *)
Lemma set_est_level_e w e s' : EC w -> EC (e_update_level (upd_edge w e (fun x => x <| est := s' |>)) e).
Proof.
  intros H. unfold EC, e_update_level, upd_edge, get_edge. cbn [wedges wcrash set]. simpl. intros C. specialize (H C).
  destruct (Nat.ltb_spec e (length (wedges w))) as [L|L].
  - rewrite upd_upd. apply upd_forall; auto.
    intros x E _. unfold EOK, occ. cbn. rewrite nth_upd_same by exact L. cbn. rewrite Nat2Z.inj_add. reflexivity.
  - apply nth_error_None in L. rewrite (upd_none e _ (wedges w)) by exact L. rewrite upd_none by exact L. exact H.
Qed.

Lemma store_op_e w e o w1 r ts : store_op w e o = (w1, r, ts) -> neutral o = true -> EC w -> EC w1.
Proof.
  unfold store_op. destruct (StoreB.step _ _) as [[s' r0] ts0] eqn:E. intros [= <- _ _] N H.
  apply set_est_e; auto. intros _. eapply neutral_occ; eauto.
Qed.
#[local] Hint Resolve w_event_e store_op_e : edb.

Lemma out_err_e w r s : EC w -> EC (out_err w r s).
Proof. apply out_err_lift; eauto using crashw_e. Qed.
#[local] Hint Resolve out_err_e : edb.

Lemma e_reserve_put_e w e p w1 t : e_reserve_put w e p = (w1, t) -> EC w -> EC w1.
Proof. eapply reserve_put_lift with (okop := (fun o => neutral o = true)); eauto with edb. Qed.

Lemma e_reserve_get_e w e p w1 t : e_reserve_get w e p = (w1, t) -> EC w -> EC w1.
Proof. eapply reserve_get_lift with (okop := (fun o => neutral o = true)); eauto with edb. Qed.

Lemma e_cancel_put_e w e t : EC w -> EC (e_cancel_put w e t).
Proof. eapply cancel_put_lift with (okop := (fun o => neutral o = true)); eauto with edb. Qed.
Lemma e_cancel_get_e w e t : EC w -> EC (e_cancel_get w e t).
Proof. eapply cancel_get_lift with (okop := (fun o => neutral o = true)); eauto with edb. Qed.
#[local] Hint Resolve e_cancel_put_e e_cancel_get_e : edb.

Lemma fleet_after_put_e w e : EC w -> EC (fleet_after_put w e).
Proof. apply fleet_after_put_lift; eauto using crashw_e, w_succeed_e. Qed.
#[local] Hint Resolve fleet_after_put_e : edb.

Lemma out_err_crash w e s : EC (out_err w (StoreB.OErr e) s).
Proof. unfold out_err. destruct e; apply crashw_e. Qed.

Lemma e_put_e w e p t i : EC w -> EC (e_put w e p t i).
Proof.
  unfold e_put. intros H. destruct (ek (get_edge w e)).
  - destruct (_ <? 0); [auto with edb|].
    destruct (StoreB.step _ _) as [[s' r] ts] eqn:ES. destruct (FactoryCons.put_res _ _ _ _ _ _ _ ES) as [->|(er & ->)].
    + destruct (spawn _ _) as [[w2 pid] d] eqn:E. apply logw_e, w_succeed_all_e.
      eapply spawn_e; [exact E|]. apply set_est_level_e. auto with edb.
    + apply out_err_crash.
  - destruct (StoreB.step _ _) as [[s' r] ts] eqn:ES. destruct (FactoryCons.put_res _ _ _ _ _ _ _ ES) as [->|(er & ->)].
    + apply logw_e, fleet_after_put_e, w_succeed_all_e, set_est_level_e, H.
    + apply out_err_crash.
Qed.
#[local] Hint Resolve e_put_e : edb.

Lemma e_get_e w e p t n w1 r : e_get w e p t n = (w1, r) -> EC w -> EC w1.
Proof.
  unfold e_get. intros E H. destruct (StoreB.step _ _) as [[s' r0] ts] eqn:ES. pose proof (get_occ _ _ _ _ _ _ ES) as G.
  destruct r0 as [?| |?|e0]; inversion E; subst; clear E.
  - simpl. apply set_est_e; auto.
  - simpl. apply set_est_e; auto.
  - apply logw_e, w_succeed_all_e, set_est_level_e, H.
  - apply out_err_crash.
Qed.

Lemma update_state_e w n s : EC w -> EC (update_state w n s).
Proof. apply update_state_lift. intros w' f _. apply upd_node_e. Qed.
#[local] Hint Resolve update_state_e : edb.

Lemma cancel_others_ee w es ts keep put : EC w -> EC (cancel_others w es ts keep put).
Proof. apply cancel_others_lift; eauto using e_cancel_put_e, e_cancel_get_e. Qed.
#[local] Hint Resolve cancel_others_ee : edb.

Lemma set_creation_e w i n : EC w -> EC (set_creation w i n).
Proof. intros H. unfold set_creation. auto 8 with edb. Qed.
Lemma update_state_rep_e w n : EC w -> EC (update_state_rep w n).
Proof. apply (update_state_rep_lift EC (fun w c _ => crashw_e w c)). intros w' f _. apply upd_node_e. Qed.
Lemma occupancy_e w n a : EC w -> EC (occupancy w n a).
Proof. intros H. unfold occupancy. auto 8 with edb. Qed.
Lemma set_thread_e w n p b : EC w -> EC (set_thread w n p b).
Proof. intros H. unfold set_thread. auto 8 with edb. Qed.
Lemma add_blocked_time_e w p n : EC w -> EC (add_blocked_time w p n).
Proof. intros H. unfold add_blocked_time. auto 8 with edb. Qed.
#[local] Hint Resolve set_creation_e update_state_rep_e occupancy_e set_thread_e add_blocked_time_e : edb.

(* the arrival of an item at the ready end keeps the occupancy; a refused arrival raises *)
Lemma ready_site_e w e i w1 r ts site (g : edge -> edge) :
  (forall x, est (g x) = est x /\ elastn (g x) = elastn x) ->
  EC w -> store_op w e (StoreB.Ready i) = (w1, r, ts) -> EC (out_err (upd_edge w1 e g) r site).
Proof.
  intros G H. unfold store_op. destruct (StoreB.step _ _) as [[s' r0] ts0] eqn:ES. intros [= <- <- _].
  pose proof (ready_occ _ _ _ _ _ ES) as K. destruct r0 as [?| |?|e0]; try (destruct K; fail).
  - simpl. apply upd_edge_all.
    + intros x Hx. unfold EOK in *. destruct (G x) as (-> & ->). exact Hx.
    + apply set_est_e; auto.
  - apply out_err_crash.
Qed.

Lemma ready_site_e0 w e i w1 r ts site :
  EC w -> store_op w e (StoreB.Ready i) = (w1, r, ts) -> EC (out_err w1 r site).
Proof.
  intros H. unfold store_op. destruct (StoreB.step _ _) as [[s' r0] ts0] eqn:ES. intros [= <- <- _].
  pose proof (ready_occ _ _ _ _ _ ES) as K. destruct r0 as [?| |?|e0]; try (destruct K; fail).
  - simpl. apply set_est_e; auto.
  - apply out_err_crash.
Qed.

Lemma EOK_frame f : edge_frame f -> forall x, EOK x -> EOK (f x).
Proof. intros F x. unfold EOK. rewrite (ef_est f F), (ef_elastn f F). auto. Qed.
#[local] Hint Resolve w_timeout_e w_any_of_e spawn_e e_reserve_put_e e_reserve_get_e e_get_e EOK_frame upd_edge_all : edb.

Lemma step_e kd pc0 p n w w' : step kd pc0 p n w w' -> EC w -> EC w'.
Proof.
  destruct 1; intros HE; auto 7 with edb.
  (* S_ready and S_fleet_ready, after the seven operations that hand back the new world in an equation *)
  8: { apply w_succeed_all_e. eapply ready_site_e0; eassumption. }
  8: { apply w_succeed_all_e. eapply ready_site_e; [|eassumption|eassumption].
       intros x. split; [apply ef_est|apply ef_elastn]; assumption. }
  all: eauto 7 with edb.
Qed.
Lemma discard_e n w1 w t i : EC w1 -> nblocking (get_node w1 n) = false -> EC w -> t = wnow w -> EC (discard w n t i).
Proof. intros _ _ H _. exact H. Qed.

Lemma sub_e kd pc0 p n w w' : (reach kd pc0 p n w w -> reach kd pc0 p n w w') -> EC w -> EC w'.
Proof. apply (sub_lift EC step_e discard_e). Qed.

Lemma source_loop_e w p n : EC w -> EC (fst (source_loop w p n)).
Proof. apply (sub_e KSourceB 0 p n), source_loop_r. Qed.
Lemma sink_loop_e w p n : EC w -> EC (fst (sink_loop w p n)).
Proof. apply (sub_e KSinkB 0 p n), sink_loop_r. Qed.
Lemma machine_request_e w p n : EC w -> EC (fst (machine_request w p n)).
Proof. apply (sub_e KMachineB 0 p n), machine_request_r. Qed.
Lemma machine_start_worker_e w p n i : EC w -> EC (fst (machine_start_worker w p n i)).
Proof. apply (sub_e KMachineB 0 p n), machine_start_worker_r. Qed.
Lemma worker_release_e w p n : EC w -> EC (fst (worker_release w p n)).
Proof. apply (sub_e KWorker 0 p n), worker_release_r. Qed.
Lemma check_state_e w n : EC w -> EC (check_state w n).
Proof. apply (sub_e KSplitWorker 0 0 n), check_state_r. exact I. Qed.
Lemma sc_request_e w p n pc : EC w -> EC (fst (sc_request w p n pc)).
Proof. apply (sub_e KSplitWorker 0 p n), sc_request_r. auto. Qed.
Lemma sc_release_e w p n : EC w -> EC (fst (sc_release w p n)).
Proof. apply (sub_e KSplitWorker 0 p n), sc_release_r. left; reflexivity. Qed.
Lemma sc_dispatch_e w p n c ph : EC w -> EC (fst (sc_dispatch w p n c ph)).
Proof. apply (sub_e KSplitWorker 0 p n), sc_dispatch_r. left; reflexivity. Qed.
Lemma sc_next_e w p n : EC w -> EC (fst (sc_next w p n)).
Proof. apply (sub_e KSplitWorker 0 p n), sc_next_r. left; reflexivity. Qed.
Lemma sc_worker_cont_e w p n : EC w -> EC (fst (sc_worker_cont w p n)).
Proof. apply (sub_e KSplitWorker 0 p n), sc_worker_cont_r. left; reflexivity. Qed.
Lemma splitter_head_e w p n : EC w -> EC (fst (splitter_head w p n)).
Proof. apply (sub_e KSplitterB 0 p n), splitter_head_r. Qed.
Lemma splitter_start_e w p n pal : EC w -> EC (fst (splitter_start w p n pal)).
Proof. apply (sub_e KSplitterB 0 p n), splitter_start_r. Qed.
Lemma combiner_head_e w p n : EC w -> EC (fst (combiner_head w p n)).
Proof. apply (sub_e KCombinerB 0 p n), combiner_head_r. Qed.
Lemma combiner_loop_e w p n : EC w -> EC (fst (combiner_loop w p n)).
Proof. apply (sub_e KCombinerB 0 p n), combiner_loop_r. Qed.

Lemma run_cbs_e l : forall w, EC w -> EC (fold_left run_cb l w).
Proof. apply (run_cbs_lift EC step_e discard_e); auto with edb; intros w n k r E H; apply upd_node_e; exact H. Qed.

(* one kernel step re-establishes the recorded level of every edge (unless the run crashed) *)
Theorem fstep_e w w' : EC w -> fstep w = Some w' -> EC w'.
Proof. apply (FactoryInv.fstep_lift EC); auto using run_cbs_e. Qed.

Lemma mk_world_e nodes edges order : Forall EOK edges -> EC (mk_world nodes edges order).
Proof. intros H0. apply (FactoryInv.mk_steps_lift EC); eauto with edb. intros _. exact H0. Qed.

(* C18 (time-averaged occupancy), for every factory configuration whose edges start with a recorded
   level equal to their (empty) content, and every number of kernel steps: unless the run crashed,
   the level every edge's accumulator is integrating is the true number of items in the edge *)
Theorem recorded_level_is_true_level nodes edges order n :
  Forall EOK edges ->
  let w := FactoryInv.iter_fstep n (mk_world nodes edges order) in
  wcrash w = None ->
  forall i ed, nth_error (wedges w) i = Some ed ->
    elastn ed = Z.of_nat (length (StoreB.transit (est ed)) + length (StoreB.ready (est ed))).
Proof.
  intros H0 w C i ed E.
  pose proof (FactoryInv.iter_fstep_lift EC (fun w k _ _ _ H => H) run_cbs_e n _ (mk_world_e nodes edges order H0) C) as K.
  eapply Forall_forall in K; [exact K|]. eapply nth_error_In; eauto.
Qed.

(* an edge as the library creates it: empty store, recorded level 0 *)
Lemma fresh_edge_ok ed : StoreB.transit (est ed) = [] -> StoreB.ready (est ed) = [] -> elastn ed = 0 -> EOK ed.
Proof. intros A B C. unfold EOK, occ. rewrite A, B, C. reflexivity. Qed.
