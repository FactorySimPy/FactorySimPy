(* Whole-factory invariant for C20 (and for the model itself): every resume callback registered with the kernel names
   an existing process.  The model's [run_cb] refuses to resume a process index beyond the process table (it stops the
   run instead of running the table's default record); this file shows that the refusal never happens: in every
   reachable world of every configuration all the callbacks handed out by a kernel pop name existing processes.
   The predicate survives every operation of the world (spawn is the one place where a callback for a new index is
   registered, together with the process); Steps.v lifts that to every block. *)
From Coq Require Import List ZArith Lia Bool Arith.
From RecordUpdate Require Import RecordUpdate.
From FV Require Import Kernel World Factory Steps.
From FV Require FactoryInv.
From FV Require StoreB.
Import ListNotations.
Open Scope Z_scope.

Definition cb_ok (n : nat) (c : cb) : Prop := match c with CbResume p => (p < n)%nat | _ => True end.
(* all callbacks of all events of kernel k name processes below n *)
Definition RK (k : kern) (n : nat) : Prop := Forall (fun e => Forall (cb_ok n) (e_cbs e)) (evs k).

Lemma cb_ok_mono n m c : (n <= m)%nat -> cb_ok n c -> cb_ok m c.
Proof. destruct c; simpl; auto. lia. Qed.
Lemma RK_mono k n m : (n <= m)%nat -> RK k n -> RK k m.
Proof.
  intros L H. unfold RK in *. eapply Forall_impl; [|exact H]. intros e He. eapply Forall_impl; [|exact He].
  intros c. apply cb_ok_mono. exact L.
Qed.

Lemma RK_set_evs_same k n q sq nw : RK k n -> RK {| now := nw; seq := sq; queue := q; evs := evs k |} n.
Proof. auto. Qed.
Lemma RK_new_event k n : RK k n -> RK (fst (new_event k)) n.
Proof. unfold RK, new_event. simpl. intros H. apply Forall_app. split; auto. constructor; auto. constructor. Qed.
Lemma RK_schedule k e p d n : RK k n -> RK (schedule k e p d) n.
Proof. auto. Qed.
Lemma RK_mark_trig k e n : RK k n -> RK (mark_trig k e) n.
Proof. unfold RK, mark_trig, set_evs. simpl. apply Forall_upd. auto. Qed.
Lemma RK_add_cb k e c n : cb_ok n c -> RK k n -> RK (add_cb k e c) n.
Proof.
  unfold RK, add_cb, set_evs. simpl. intros C. apply Forall_upd. intros x Hx. simpl. apply Forall_app. split; auto.
Qed.
Lemma RK_pop k k' e cbs n : pop k = Some (k', e, cbs) -> RK k n -> RK k' n /\ Forall (cb_ok n) cbs.
Proof.
  unfold pop. destruct (queue k) as [|x q]; [discriminate|]. intros [= <- _ <-] H. split.
  - unfold RK in *. simpl. apply Forall_upd; auto. intros y Hy. simpl. constructor.
  - unfold RK in H. unfold get_ev. destruct (Nat.lt_ge_cases (q_ev x) (length (evs k))) as [L|L].
    + rewrite Forall_forall in H. apply H. apply nth_In. exact L.
    + rewrite nth_overflow by exact L. constructor.
Qed.
(* the kernel operations, through Kernel.Kept: they register check and resource callbacks only *)
Section Ops.
Variable n : nat.
Let P (k : kern) : Prop := RK k n.
Let always (d : Z) : Prop := True.
Let P_new k : P k -> P (fst (new_event k)) := RK_new_event k n.
Let P_add_cb k e c : cb_ok n c -> P k -> P (add_cb k e c) := RK_add_cb k e c n.
Let P_trigger k e p d : always d -> e_trig (get_ev k e) = false -> P k -> P (schedule (mark_trig k e) e p d) :=
  fun _ _ H => RK_schedule _ e p d n (RK_mark_trig k e n H).
Let ok_cb (c : nat) : cb_ok n (CbCheck c) := I.

Lemma RK_succeed k e k' : succeed k e = Some k' -> RK k n -> RK k' n.
Proof. exact (kept_succeed P always I P_trigger k e k'). Qed.
Lemma RK_timeout k d : RK k n -> RK (fst (timeout k d)) n.
Proof. exact (kept_timeout P always P_new P_trigger k d I). Qed.
Lemma RK_check k c : RK k n -> RK (check k c) n.
Proof. exact (kept_check P always I P_trigger k c). Qed.
Lemma RK_any_of k es : RK k n -> RK (fst (any_of k es)) n.
Proof. exact (kept_any_of P always (cb_ok n) I ok_cb P_new P_add_cb P_trigger k es). Qed.
Lemma RK_res_trig_put k r k' r' : res_trig_put k r = Some (k', r') -> RK k n -> RK k' n.
Proof. exact (kept_res_trig_put P always I P_trigger k r k' r'). Qed.
Lemma RK_res_trig_get k r k' r' : res_trig_get k r = Some (k', r') -> RK k n -> RK k' n.
Proof. exact (kept_res_trig_get P always I P_trigger k r k' r'). Qed.
Lemma RK_res_request k rid r k' r' q : res_request k rid r = Some (k', r', q) -> RK k n -> RK k' n.
Proof. exact (kept_res_request P always (cb_ok n) I (fun _ => I) P_new P_add_cb P_trigger k rid r k' r' q). Qed.
Lemma RK_res_release k rid r q k' r' g : res_release k rid r q = Some (k', r', g) -> RK k n -> RK k' n.
Proof. exact (kept_res_release P always (cb_ok n) I (fun _ => I) P_new P_add_cb P_trigger k rid r q k' r' g). Qed.
End Ops.

Section AtLeast.
Variable m : nat.        (* the process table never shrinks: it has at least m entries throughout *)
Definition CN (w : world) : Prop := RK (wk w) (length (wprocs w)) /\ (m <= length (wprocs w))%nat.

Lemma same_c w w' : wk w' = wk w -> length (wprocs w') = length (wprocs w) -> CN w -> CN w'.
Proof. unfold CN. intros -> ->. auto. Qed.
Lemma setk_c w k : RK k (length (wprocs w)) -> CN w -> CN (w <| wk := k |>).
Proof. intros R (_ & L). split; auto. Qed.

Create HintDb cdb.

Lemma crashw_c w c : CN w -> CN (crashw w c).
Proof. unfold crashw. destruct (wcrash w); auto. Qed.
Lemma logw_c w x : CN w -> CN (logw w x).
Proof. auto. Qed.
Lemma upd_edge_c w e f : CN w -> CN (upd_edge w e f).
Proof. auto. Qed.
Lemma upd_node_c w e f : CN w -> CN (upd_node w e f).
Proof. auto. Qed.
Lemma upd_item_c w e f : CN w -> CN (upd_item w e f).
Proof. auto. Qed.
Lemma upd_proc_c w e f : CN w -> CN (upd_proc w e f).
Proof. unfold CN, upd_proc. cbn [wk wprocs set]. simpl. rewrite upd_length. auto. Qed.
Lemma rk_of w : CN w -> RK (wk w) (length (wprocs w)).
Proof. intros (A & _). exact A. Qed.
Lemma setpc_c w p pc : CN w -> CN (setpc w p pc).
Proof. apply upd_proc_c. Qed.
#[local] Hint Resolve crashw_c logw_c upd_edge_c upd_node_c upd_item_c upd_proc_c setpc_c : cdb.
#[local] Hint Extern 4 (CN (set witems _ _)) => (eapply same_c; [| |]; [reflexivity|reflexivity|]) : cdb.

Lemma w_succeed_c w e s : CN w -> CN (w_succeed w e s).
Proof.
  unfold w_succeed. intros H. destruct (succeed (wk w) e) eqn:E; [|apply crashw_c; auto].
  apply setk_c; [|exact H]. eapply RK_succeed; [exact E|apply rk_of; exact H].
Qed.
#[local] Hint Resolve w_succeed_c : cdb.

Lemma w_succeed_all_c es : forall w, CN w -> CN (w_succeed_all w es).
Proof. apply succeed_all_lift; eauto using crashw_c, w_succeed_c. Qed.
#[local] Hint Resolve w_succeed_all_c : cdb.

Lemma w_event_c w w1 e : w_event w = (w1, e) -> CN w -> CN w1.
Proof. unfold w_event. simpl. intros [= <- _] H. apply setk_c; [|exact H]. apply (RK_new_event _ _ (rk_of _ H)). Qed.

Lemma w_timeout_c w d w1 e : w_timeout w d = (w1, e) -> CN w -> CN w1.
Proof.
  unfold w_timeout. destruct (d <? 0).
  - intros [= <- _] H. auto with cdb.
  - destruct (timeout (wk w) d) as [k e0] eqn:E. intros [= <- _] H. apply setk_c; [|exact H].
    apply (f_equal fst) in E. simpl in E. subst k. apply RK_timeout. apply rk_of; exact H.
Qed.

Lemma w_any_of_c w es w1 c : w_any_of w es = (w1, c) -> CN w -> CN w1.
Proof.
  unfold w_any_of. destruct (any_of (wk w) es) as [k e0] eqn:E. intros [= <- _] H. apply setk_c; [|exact H].
  apply (f_equal fst) in E. simpl in E. subst k. apply RK_any_of. apply rk_of; exact H.
Qed.

(* env.process(...): the one place where a resume callback for a NEW index is registered -- together with the process *)
Lemma spawn_c w p w1 pid d : spawn w p = (w1, pid, d) -> CN w -> CN w1.
Proof.
  unfold spawn. intros E H.
  destruct (w_event w) as [wa done] eqn:E1. destruct (w_event wa) as [wb ini] eqn:E2.
  inversion E; subst. clear E.
  assert (CN wb) as Hb by (eapply w_event_c; [exact E2|]; eapply w_event_c; [exact E1|]; exact H).
  assert (PW : wprocs wb = wprocs w) by (unfold w_event in E1, E2; injection E1 as <- _; injection E2 as <- _; reflexivity).
  destruct Hb as (Rb & Lb). rewrite PW in Rb, Lb. unfold CN. cbn [wk wprocs set]. simpl. rewrite PW, app_length. simpl. split; [|lia].
  apply RK_schedule, RK_mark_trig. apply RK_add_cb; [simpl; lia|]. eapply RK_mono; [|exact Rb]. lia.
Qed.

Lemma e_update_level_c w e : CN w -> CN (e_update_level w e).
Proof. auto. Qed.
#[local] Hint Resolve e_update_level_c : cdb.
Lemma store_op_c w e o w1 r ts : store_op w e o = (w1, r, ts) -> CN w -> CN w1.
Proof. unfold store_op. destruct (StoreB.step _ _) as [[s' r0] ts0]. intros [= <- _ _] H. auto. Qed.
#[local] Hint Resolve w_event_c store_op_c : cdb.

Lemma out_err_c w r s : CN w -> CN (out_err w r s).
Proof. apply out_err_lift; eauto using crashw_c. Qed.
#[local] Hint Resolve out_err_c : cdb.

Lemma e_reserve_put_c w e p w1 t : e_reserve_put w e p = (w1, t) -> CN w -> CN w1.
Proof. eapply reserve_put_lift with (okop := fun _ => True); eauto with cdb. Qed.

Lemma e_reserve_get_c w e p w1 t : e_reserve_get w e p = (w1, t) -> CN w -> CN w1.
Proof. eapply reserve_get_lift with (okop := fun _ => True); eauto with cdb. Qed.

Lemma e_cancel_put_c w e t : CN w -> CN (e_cancel_put w e t).
Proof. eapply cancel_put_lift with (okop := fun _ => True); eauto with cdb. Qed.
Lemma e_cancel_get_c w e t : CN w -> CN (e_cancel_get w e t).
Proof. eapply cancel_get_lift with (okop := fun _ => True); eauto with cdb. Qed.
#[local] Hint Resolve e_cancel_put_c e_cancel_get_c : cdb.

Lemma fleet_after_put_c w e : CN w -> CN (fleet_after_put w e).
Proof. apply fleet_after_put_lift; eauto using crashw_c, w_succeed_c. Qed.
#[local] Hint Resolve fleet_after_put_c : cdb.

Lemma e_put_c w e p t i : CN w -> CN (e_put w e p t i).
Proof. apply (put_lift CN crashw_c w_succeed_c upd_edge_c); [intros *; apply spawn_c|intros w0 x _; apply logw_c]. Qed.
#[local] Hint Resolve e_put_c : cdb.

Lemma e_get_c w e p t n w1 r : e_get w e p t n = (w1, r) -> CN w -> CN w1.
Proof. apply (get_lift CN crashw_c w_succeed_c upd_edge_c). intros w0 x _. apply logw_c. Qed.

Lemma update_state_c w n s : CN w -> CN (update_state w n s).
Proof. apply update_state_lift. intros w' f _. apply upd_node_c. Qed.
#[local] Hint Resolve update_state_c : cdb.

Lemma cancel_others_cc w es ts keep put : CN w -> CN (cancel_others w es ts keep put).
Proof. apply cancel_others_lift; eauto using e_cancel_put_c, e_cancel_get_c. Qed.
#[local] Hint Resolve cancel_others_cc : cdb.

Lemma set_creation_c w i n : CN w -> CN (set_creation w i n).
Proof. intros H. unfold set_creation. auto with cdb. Qed.
Lemma update_state_rep_c w n : CN w -> CN (update_state_rep w n).
Proof. apply (update_state_rep_lift CN crashw_c). intros w' f _. apply upd_node_c. Qed.
Lemma occupancy_c w n a : CN w -> CN (occupancy w n a).
Proof. intros H. unfold occupancy. auto 8 with cdb. Qed.
Lemma set_thread_c w n p b : CN w -> CN (set_thread w n p b).
Proof. intros H. unfold set_thread. auto 8 with cdb. Qed.
Lemma add_blocked_time_c w p n : CN w -> CN (add_blocked_time w p n).
Proof. intros H. unfold add_blocked_time. auto 8 with cdb. Qed.
#[local] Hint Resolve set_creation_c update_state_rep_c occupancy_c set_thread_c add_blocked_time_c : cdb.

#[local] Hint Resolve w_timeout_c w_any_of_c spawn_c e_reserve_put_c e_reserve_get_c e_get_c : cdb.

Lemma step_c kd pc0 p n w w' : step kd pc0 p n w w' -> CN w -> CN w'.
Proof.
  destruct 1; intros HC; auto 6 with cdb.
  1: { apply upd_node_c, setk_c; [|exact HC]. eapply RK_res_request; [eassumption|apply rk_of; exact HC]. }
  1: { apply upd_node_c, setk_c; [|exact HC]. eapply RK_res_release; [eassumption|apply rk_of; exact HC]. }
  all: eauto 6 with cdb.
Qed.
Lemma discard_c n w1 w t i : CN w1 -> nblocking (get_node w1 n) = false -> CN w -> t = wnow w -> CN (discard w n t i).
Proof. intros _ _ H _. exact H. Qed.

Lemma sub_c kd pc0 p n w w' : (reach kd pc0 p n w w -> reach kd pc0 p n w w') -> CN w -> CN w'.
Proof. apply (sub_lift CN step_c discard_c). Qed.

Lemma source_loop_c w p n : CN w -> CN (fst (source_loop w p n)).
Proof. apply (sub_c KSourceB 0 p n), source_loop_r. Qed.
Lemma sink_loop_c w p n : CN w -> CN (fst (sink_loop w p n)).
Proof. apply (sub_c KSinkB 0 p n), sink_loop_r. Qed.
Lemma machine_request_c w p n : CN w -> CN (fst (machine_request w p n)).
Proof. apply (sub_c KMachineB 0 p n), machine_request_r. Qed.
Lemma machine_start_worker_c w p n i : CN w -> CN (fst (machine_start_worker w p n i)).
Proof. apply (sub_c KMachineB 0 p n), machine_start_worker_r. Qed.
Lemma worker_release_c w p n : CN w -> CN (fst (worker_release w p n)).
Proof. apply (sub_c KWorker 0 p n), worker_release_r. Qed.
Lemma check_state_c w n : CN w -> CN (check_state w n).
Proof. apply (sub_c KSplitWorker 0 0 n), check_state_r. exact I. Qed.
Lemma sc_request_c w p n pc : CN w -> CN (fst (sc_request w p n pc)).
Proof. apply (sub_c KSplitWorker 0 p n), sc_request_r. auto. Qed.
Lemma sc_release_c w p n : CN w -> CN (fst (sc_release w p n)).
Proof. apply (sub_c KSplitWorker 0 p n), sc_release_r. left; reflexivity. Qed.
Lemma sc_dispatch_c w p n c ph : CN w -> CN (fst (sc_dispatch w p n c ph)).
Proof. apply (sub_c KSplitWorker 0 p n), sc_dispatch_r. left; reflexivity. Qed.
Lemma sc_next_c w p n : CN w -> CN (fst (sc_next w p n)).
Proof. apply (sub_c KSplitWorker 0 p n), sc_next_r. left; reflexivity. Qed.
Lemma sc_worker_cont_c w p n : CN w -> CN (fst (sc_worker_cont w p n)).
Proof. apply (sub_c KSplitWorker 0 p n), sc_worker_cont_r. left; reflexivity. Qed.
Lemma splitter_head_c w p n : CN w -> CN (fst (splitter_head w p n)).
Proof. apply (sub_c KSplitterB 0 p n), splitter_head_r. Qed.
Lemma splitter_start_c w p n pal : CN w -> CN (fst (splitter_start w p n pal)).
Proof. apply (sub_c KSplitterB 0 p n), splitter_start_r. Qed.
Lemma combiner_head_c w p n : CN w -> CN (fst (combiner_head w p n)).
Proof. apply (sub_c KCombinerB 0 p n), combiner_head_r. Qed.
Lemma combiner_loop_c w p n : CN w -> CN (fst (combiner_loop w p n)).
Proof. apply (sub_c KCombinerB 0 p n), combiner_loop_r. Qed.

Lemma block_c w p : CN w -> CN (fst (block w p)).
Proof. apply (block_lift CN step_c discard_c). Qed.

(* Process._resume of a process below the bound m: its own callback is registered for an index that exists *)
Lemma resume_c f : forall w p, (p < m)%nat -> CN w -> CN (resume f w p).
Proof.
  induction f as [|f IH]; simpl; intros w p LP H; auto with cdb.
  destruct (wcrash w); auto.
  pose proof (block_c (w <| wactive := p |>) p) as B.
  destruct (block (w <| wactive := p |>) p) as [w1 y]. cbn [fst] in B.
  assert (CN w1) as H1 by (apply B; exact H).
  destruct (wcrash w1); auto. destruct y.
  - destruct (e_proc _); [apply IH; auto|]. apply setk_c; [|exact H1].
    apply RK_add_cb; [simpl; destruct H1 as (_ & L1); lia|apply rk_of; exact H1].
  - apply upd_proc_c. apply setk_c; [|exact H1]. apply RK_schedule, RK_mark_trig. apply rk_of; exact H1.
Qed.

End AtLeast.

Lemma cn_weaken m m' w : (m' <= m)%nat -> CN m w -> CN m' w.
Proof. intros L (A & B). split; auto. lia. Qed.
Lemma cn_any w : RK (wk w) (length (wprocs w)) -> CN (length (wprocs w)) w.
Proof. intros H. split; auto. Qed.

Lemma run_cb_c w c : CN 0 w -> CN 0 (run_cb w c).
Proof.
  intros H. unfold run_cb. destruct (wcrash w); auto. destruct c.
  - destruct (Nat.ltb_spec p (length (wprocs w))) as [L|L]; [|apply crashw_c; exact H].
    apply (cn_weaken (length (wprocs w)) 0); [lia|]. apply resume_c; [exact L|]. apply cn_any. apply (rk_of 0); exact H.
  - apply setk_c; [|exact H]. apply RK_check. apply (rk_of 0); exact H.
  - destruct (res_trig_get _ _) as [[k0 r0]|] eqn:E; [|apply crashw_c; exact H].
    apply upd_node_c. apply setk_c; [|exact H]. eapply RK_res_trig_get; [exact E|apply (rk_of 0); exact H].
  - destruct (res_trig_put _ _) as [[k0 r0]|] eqn:E; [|apply crashw_c; exact H].
    apply upd_node_c. apply setk_c; [|exact H]. eapply RK_res_trig_put; [exact E|apply (rk_of 0); exact H].
  - exact H.
Qed.

Lemma run_cbs_c l : forall w, CN 0 w -> CN 0 (fold_left run_cb l w).
Proof. induction l as [|c l IH]; simpl; auto. intros w H. apply IH, run_cb_c, H. Qed.

(* one kernel step; and the callbacks it hands out all name existing processes: the refusal in run_cb is dead code *)
Lemma pop_c w k e cbs : pop (wk w) = Some (k, e, cbs) -> CN 0 w -> CN 0 (w <| wk := k |>).
Proof. intros E H. destruct (RK_pop _ _ _ _ _ E (rk_of 0 _ H)) as (A & _). split; [exact A|lia]. Qed.
Theorem fstep_c w w' : CN 0 w -> fstep w = Some w' -> CN 0 w'.
Proof. apply (FactoryInv.fstep_lift (CN 0) pop_c run_cbs_c). Qed.

Theorem popped_callbacks_name_processes w k e cbs :
  CN 0 w -> pop (wk w) = Some (k, e, cbs) -> forall p, In (CbResume p) cbs -> (p < length (wprocs w))%nat.
Proof.
  intros H E p IN. destruct (RK_pop _ _ _ _ _ E (rk_of 0 _ H)) as (_ & B).
  rewrite Forall_forall in B. exact (B _ IN).
Qed.

Lemma mk_world_c nodes edges order : CN 0 (mk_world nodes edges order).
Proof.
  apply (FactoryInv.mk_steps_lift (CN 0)); eauto using spawn_c, w_event_c, upd_edge_c.
  split; [constructor|simpl; lia].
Qed.

(* for every factory configuration and every number of kernel steps *)
Theorem callbacks_name_existing_processes nodes edges order n :
  let w := FactoryInv.iter_fstep n (mk_world nodes edges order) in
  (forall e p, In (CbResume p) (e_cbs (get_ev (wk w) e)) -> (p < length (wprocs w))%nat) /\
  (forall k e cbs, pop (wk w) = Some (k, e, cbs) -> forall p, In (CbResume p) cbs -> (p < length (wprocs w))%nat).
Proof.
  intros w. pose proof (FactoryInv.iter_fstep_lift (CN 0) pop_c run_cbs_c n _ (mk_world_c nodes edges order)) as H. fold w in H. split.
  - intros e p IN. destruct H as (R & _). unfold RK in R. unfold get_ev in IN.
    destruct (Nat.lt_ge_cases e (length (evs (wk w)))) as [L|L].
    + rewrite Forall_forall in R. specialize (R _ (nth_In _ ev0 L)). rewrite Forall_forall in R. exact (R _ IN).
    + rewrite nth_overflow in IN by exact L. destruct IN.
  - intros k e cbs E. eapply popped_callbacks_name_processes; eauto.
Qed.
