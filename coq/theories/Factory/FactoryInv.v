(* Whole-factory invariants, for every reachable world of every configuration:
   KI  -- the kernel invariant (queue sorted by time, nothing scheduled in the past), hence
          simulated time never decreases (C19).
   The first part shows that KI survives every operation of the world; Steps.v turns that into every block, every
   resumption and every callback.  The last section does the same for the runs of any predicate that does not mention
   the clock (fstep, iter_fstep, mk_world). *)
From Coq Require Import List ZArith Lia Bool Arith.
From RecordUpdate Require Import RecordUpdate.
From FV Require Import Kernel World Factory Steps.
From FV Require StoreB.
Import ListNotations.
Open Scope Z_scope.

Section AtTime.
Variable tnow : Z.

(* kernel invariant + "the clock shows t": no operation other than popping the queue moves the clock *)
Definition KT (k : kern) : Prop := KInv k /\ now k = tnow.
Definition KI (w : world) : Prop := KT (wk w).

Lemma schedule_kt k e p d : 0 <= d -> KT k -> KT (schedule k e p d).
Proof. intros Hd (A & B). split; [apply schedule_kinv; auto|exact B]. Qed.

Create HintDb kdb.

Lemma KI_same w w' : wk w' = wk w -> KI w -> KI w'.
Proof. unfold KI. intros ->. auto. Qed.

Lemma crashw_k w c : KI w -> KI (crashw w c).
Proof. unfold crashw. destruct (wcrash w); auto. Qed.
Lemma logw_k w x : KI w -> KI (logw w x).
Proof. auto. Qed.
Lemma upd_edge_k w e f : KI w -> KI (upd_edge w e f).
Proof. auto. Qed.
Lemma upd_node_k w e f : KI w -> KI (upd_node w e f).
Proof. auto. Qed.
Lemma upd_proc_k w e f : KI w -> KI (upd_proc w e f).
Proof. auto. Qed.
Lemma upd_item_k w e f : KI w -> KI (upd_item w e f).
Proof. auto. Qed.
Lemma setpc_k w p pc : KI w -> KI (setpc w p pc).
Proof. auto. Qed.
#[local] Hint Resolve crashw_k logw_k upd_edge_k upd_node_k upd_proc_k upd_item_k setpc_k : kdb.

Lemma mark_trig_kinv k e : KT k -> KT (mark_trig k e).
Proof. auto. Qed.
Lemma add_cb_kinv k e c : KT k -> KT (add_cb k e c).
Proof. auto. Qed.
Lemma new_event_kinv k : KT k -> KT (fst (new_event k)).
Proof. auto. Qed.

(* the kernel operations, through Kernel.Kept: triggering an event schedules it at a delay that is not negative *)
Lemma trigger_kt k e p d : 0 <= d -> e_trig (get_ev k e) = false -> KT k -> KT (schedule (mark_trig k e) e p d).
Proof. intros D _ H. apply schedule_kt; [exact D|]. apply mark_trig_kinv, H. Qed.
Lemma succeed_kinv k e k' : succeed k e = Some k' -> KT k -> KT k'.
Proof. apply (kept_succeed KT (fun d => 0 <= d) (Z.le_refl 0) trigger_kt). Qed.

Lemma w_succeed_k w e s : KI w -> KI (w_succeed w e s).
Proof.
  unfold w_succeed. intros H. destruct (succeed (wk w) e) eqn:E; [|apply crashw_k; auto].
  unfold KI; simpl. eapply succeed_kinv; eauto.
Qed.
#[local] Hint Resolve w_succeed_k : kdb.

Lemma w_succeed_all_k es : forall w, KI w -> KI (w_succeed_all w es).
Proof. apply succeed_all_lift; eauto using crashw_k, w_succeed_k. Qed.
#[local] Hint Resolve w_succeed_all_k : kdb.

Lemma w_event_k w w1 e : w_event w = (w1, e) -> KI w -> KI w1.
Proof. unfold w_event. simpl. intros [= <- _] H. exact H. Qed.

Lemma timeout_kinv k d : 0 <= d -> KT k -> KT (fst (timeout k d)).
Proof. apply (kept_timeout KT (fun d => 0 <= d) new_event_kinv trigger_kt). Qed.

Lemma w_timeout_k w d w1 e : w_timeout w d = (w1, e) -> KI w -> KI w1.
Proof.
  unfold w_timeout. destruct (Z.ltb_spec d 0) as [Hd|Hd].
  - intros [= <- _] H. auto with kdb.
  - intros E H. pose proof (timeout_kinv (wk w) d Hd H) as K.
    destruct (timeout (wk w) d) as [k e0]. inversion E; subst. exact K.
Qed.

Lemma check_kinv k c : KT k -> KT (check k c).
Proof. apply (kept_check KT (fun d => 0 <= d) (Z.le_refl 0) trigger_kt). Qed.

Lemma any_of_kinv k es : KT k -> KT (fst (any_of k es)).
Proof.
  apply (kept_any_of KT (fun d => 0 <= d) (fun _ => True) (Z.le_refl 0) (fun _ => I) new_event_kinv
           (fun k e c _ => add_cb_kinv k e c) trigger_kt).
Qed.

Lemma w_any_of_k w es w1 c : w_any_of w es = (w1, c) -> KI w -> KI w1.
Proof.
  unfold w_any_of. intros E H. pose proof (any_of_kinv (wk w) es H) as K.
  destruct (any_of (wk w) es) as [k e0]. inversion E; subst. exact K.
Qed.

Lemma spawn_k w p w1 pid d : spawn w p = (w1, pid, d) -> KI w -> KI w1.
Proof.
  unfold spawn. intros E H.
  destruct (w_event w) as [wa done] eqn:E1. destruct (w_event wa) as [wb ini] eqn:E2.
  inversion E; subst. clear E. unfold KI. simpl.
  apply schedule_kt; [lia|]. apply mark_trig_kinv, add_cb_kinv.
  eapply w_event_k; [exact E2|]. eapply w_event_k; [exact E1|]. exact H.
Qed.

Lemma e_update_level_k w e : KI w -> KI (e_update_level w e).
Proof. auto. Qed.
#[local] Hint Resolve e_update_level_k : kdb.

Lemma store_op_k w e o w1 r ts : store_op w e o = (w1, r, ts) -> KI w -> KI w1.
Proof. unfold store_op. destruct (StoreB.step _ _) as [[s' r0] ts0]. intros [= <- _ _] H. auto. Qed.
#[local] Hint Resolve w_event_k store_op_k : kdb.

Lemma out_err_k w r s : KI w -> KI (out_err w r s).
Proof. apply out_err_lift; eauto using crashw_k. Qed.
#[local] Hint Resolve out_err_k : kdb.

Lemma e_reserve_put_k w e p w1 t : e_reserve_put w e p = (w1, t) -> KI w -> KI w1.
Proof. eapply reserve_put_lift with (okop := fun _ => True); eauto with kdb. Qed.

Lemma e_reserve_get_k w e p w1 t : e_reserve_get w e p = (w1, t) -> KI w -> KI w1.
Proof. eapply reserve_get_lift with (okop := fun _ => True); eauto with kdb. Qed.

Lemma e_cancel_put_k w e t : KI w -> KI (e_cancel_put w e t).
Proof. eapply cancel_put_lift with (okop := fun _ => True); eauto with kdb. Qed.
Lemma e_cancel_get_k w e t : KI w -> KI (e_cancel_get w e t).
Proof. eapply cancel_get_lift with (okop := fun _ => True); eauto with kdb. Qed.
#[local] Hint Resolve e_cancel_put_k e_cancel_get_k : kdb.

Lemma fleet_after_put_k w e : KI w -> KI (fleet_after_put w e).
Proof. apply fleet_after_put_lift; eauto using crashw_k, w_succeed_k. Qed.
#[local] Hint Resolve fleet_after_put_k : kdb.

Lemma e_put_k w e p t i : KI w -> KI (e_put w e p t i).
Proof. apply (put_lift KI crashw_k w_succeed_k upd_edge_k); [intros *; apply spawn_k|intros w0 x _; apply logw_k]. Qed.
#[local] Hint Resolve e_put_k : kdb.

Lemma e_get_k w e p t n w1 r : e_get w e p t n = (w1, r) -> KI w -> KI w1.
Proof. apply (get_lift KI crashw_k w_succeed_k upd_edge_k). intros w0 x _. apply logw_k. Qed.

Lemma update_state_k w n s : KI w -> KI (update_state w n s).
Proof. apply update_state_lift. intros w' f _. apply upd_node_k. Qed.
#[local] Hint Resolve update_state_k : kdb.

Lemma cancel_others_kk w es ts keep put : KI w -> KI (cancel_others w es ts keep put).
Proof. apply cancel_others_lift; eauto using e_cancel_put_k, e_cancel_get_k. Qed.
#[local] Hint Resolve cancel_others_kk : kdb.

Lemma set_creation_k w i n : KI w -> KI (set_creation w i n).
Proof. auto. Qed.
Lemma update_state_rep_k w n : KI w -> KI (update_state_rep w n).
Proof. apply (update_state_rep_lift KI crashw_k). intros w' f _. apply upd_node_k. Qed.
Lemma occupancy_k w n a : KI w -> KI (occupancy w n a).
Proof. auto. Qed.
Lemma set_thread_k w n p b : KI w -> KI (set_thread w n p b).
Proof. auto. Qed.
Lemma add_blocked_time_k w p n : KI w -> KI (add_blocked_time w p n).
Proof. auto. Qed.
#[local] Hint Resolve set_creation_k update_state_rep_k occupancy_k set_thread_k add_blocked_time_k : kdb.

Lemma res_trig_put_kinv k r k' r' : res_trig_put k r = Some (k', r') -> KT k -> KT k'.
Proof. apply (kept_res_trig_put KT (fun d => 0 <= d) (Z.le_refl 0) trigger_kt). Qed.
Lemma res_trig_get_kinv k r k' r' : res_trig_get k r = Some (k', r') -> KT k -> KT k'.
Proof. apply (kept_res_trig_get KT (fun d => 0 <= d) (Z.le_refl 0) trigger_kt). Qed.
Lemma res_request_kinv k rid r k' r' q : res_request k rid r = Some (k', r', q) -> KT k -> KT k'.
Proof.
  apply (kept_res_request KT (fun d => 0 <= d) (fun _ => True) (Z.le_refl 0) (fun _ => I) new_event_kinv
           (fun k e c _ => add_cb_kinv k e c) trigger_kt).
Qed.
Lemma res_release_kinv k rid r q k' r' g : res_release k rid r q = Some (k', r', g) -> KT k -> KT k'.
Proof.
  apply (kept_res_release KT (fun d => 0 <= d) (fun _ => True) (Z.le_refl 0) (fun _ => I) new_event_kinv
           (fun k e c _ => add_cb_kinv k e c) trigger_kt).
Qed.

#[local] Hint Resolve w_timeout_k w_any_of_k spawn_k e_reserve_put_k e_reserve_get_k e_get_k : kdb.
Lemma step_k kd pc0 p n w w' : step kd pc0 p n w w' -> KI w -> KI w'.
Proof.
  (* auto first, then the two cases the search cannot close: eauto is dear on those, and even on the goals auto closes *)
  destruct 1; intros HK; auto 6 with kdb.
  1: { apply upd_node_k, (KI_same (w <| wk := k |>)); [reflexivity|]. eapply res_request_kinv; eauto. }
  1: { apply upd_node_k, (KI_same (w <| wk := k |>)); [reflexivity|]. eapply res_release_kinv; eauto. }
  all: eauto 6 with kdb.
Qed.
Lemma discard_k n w1 w t i : KI w1 -> nblocking (get_node w1 n) = false -> KI w -> t = wnow w -> KI (discard w n t i).
Proof. intros _ _ H _. exact H. Qed.

Lemma sub_k kd pc0 p n w w' : (reach kd pc0 p n w w -> reach kd pc0 p n w w') -> KI w -> KI w'.
Proof. apply (sub_lift KI step_k discard_k). Qed.

Lemma source_loop_k w p n : KI w -> KI (fst (source_loop w p n)).
Proof. apply (sub_k KSourceB 0 p n), source_loop_r. Qed.
Lemma sink_loop_k w p n : KI w -> KI (fst (sink_loop w p n)).
Proof. apply (sub_k KSinkB 0 p n), sink_loop_r. Qed.
Lemma machine_request_k w p n : KI w -> KI (fst (machine_request w p n)).
Proof. apply (sub_k KMachineB 0 p n), machine_request_r. Qed.
Lemma machine_start_worker_k w p n i : KI w -> KI (fst (machine_start_worker w p n i)).
Proof. apply (sub_k KMachineB 0 p n), machine_start_worker_r. Qed.
Lemma worker_release_k w p n : KI w -> KI (fst (worker_release w p n)).
Proof. apply (sub_k KWorker 0 p n), worker_release_r. Qed.
Lemma check_state_k w n : KI w -> KI (check_state w n).
Proof. apply (sub_k KSplitWorker 0 0 n), check_state_r. exact I. Qed.
Lemma sc_request_k w p n pc : KI w -> KI (fst (sc_request w p n pc)).
Proof. apply (sub_k KSplitWorker 0 p n), sc_request_r. auto. Qed.
Lemma sc_release_k w p n : KI w -> KI (fst (sc_release w p n)).
Proof. apply (sub_k KSplitWorker 0 p n), sc_release_r. left; reflexivity. Qed.
Lemma sc_dispatch_k w p n c ph : KI w -> KI (fst (sc_dispatch w p n c ph)).
Proof. apply (sub_k KSplitWorker 0 p n), sc_dispatch_r. left; reflexivity. Qed.
Lemma sc_next_k w p n : KI w -> KI (fst (sc_next w p n)).
Proof. apply (sub_k KSplitWorker 0 p n), sc_next_r. left; reflexivity. Qed.
Lemma sc_worker_cont_k w p n : KI w -> KI (fst (sc_worker_cont w p n)).
Proof. apply (sub_k KSplitWorker 0 p n), sc_worker_cont_r. left; reflexivity. Qed.
Lemma splitter_head_k w p n : KI w -> KI (fst (splitter_head w p n)).
Proof. apply (sub_k KSplitterB 0 p n), splitter_head_r. Qed.
Lemma splitter_start_k w p n pal : KI w -> KI (fst (splitter_start w p n pal)).
Proof. apply (sub_k KSplitterB 0 p n), splitter_start_r. Qed.
Lemma combiner_head_k w p n : KI w -> KI (fst (combiner_head w p n)).
Proof. apply (sub_k KCombinerB 0 p n), combiner_head_r. Qed.
Lemma combiner_loop_k w p n : KI w -> KI (fst (combiner_loop w p n)).
Proof. apply (sub_k KCombinerB 0 p n), combiner_loop_r. Qed.

Lemma block_k w p : KI w -> KI (fst (block w p)).
Proof. apply (block_lift KI step_k discard_k). Qed.

Lemma run_cbs_k l : forall w, KI w -> KI (fold_left run_cb l w).
Proof.
  apply (run_cbs_lift KI step_k discard_k); auto with kdb.
  - intros w p d H. apply upd_proc_k. unfold KI; cbn [wk set]; simpl. apply schedule_kt; [lia|]. apply mark_trig_kinv, H.
  - intros w c H. unfold KI; cbn [wk set]; simpl. apply check_kinv, H.
  - intros w n k r E H. apply upd_node_k. unfold KI; cbn [wk set]; simpl. eapply res_trig_get_kinv; eauto.
  - intros w n k r E H. apply upd_node_k. unfold KI; cbn [wk set]; simpl. eapply res_trig_put_kinv; eauto.
Qed.

End AtTime.

(* one kernel step preserves the kernel invariant and never moves the clock back *)
Theorem fstep_k w w' : KInv (wk w) -> fstep w = Some w' -> KInv (wk w') /\ wnow w <= wnow w'.
Proof.
  unfold fstep. intros H. destruct (wcrash w); [discriminate|].
  destruct (pop (wk w)) as [[[k e] cbs]|] eqn:E; [|discriminate]. intros [= <-].
  destruct (pop_kinv _ _ _ _ H E) as (K & M).
  assert (KI (now k) (w <| wk := k |>)) as H0 by (split; auto).
  destruct (run_cbs_k (now k) cbs _ H0) as (A & B). split; auto. unfold wnow. rewrite B. exact M.
Qed.

Section Build.
Variable P : world -> Prop.
Hypothesis P_spawn : forall w pr w1 pid d, spawn w pr = (w1, pid, d) -> P w -> P w1.
Hypothesis P_event : forall w w1 e, w_event w = (w1, e) -> P w -> P w1.
Hypothesis P_eact : forall w e a, P w -> P (upd_edge w e (fun x => x <| eact := a |>)).

Lemma mk_steps_lift l : forall w, P w -> P (fold_left mk_step l w).
Proof.
  induction l as [|[b i] l IH]; cbn [fold_left]; auto. intros w H. apply IH. unfold mk_step. destruct b.
  - cbv zeta. match goal with |- context [spawn ?a ?b] => destruct (spawn a b) as [[w' pid] d] eqn:E end. eauto.
  - destruct (ek (get_edge w i)); auto. destruct (w_event w) as [w1 act] eqn:E1. cbv zeta.
    match goal with |- context [spawn ?a ?b] => destruct (spawn a b) as [[w' pid] d] eqn:E end. eauto.
Qed.
End Build.

Lemma mk_world_k nodes edges order : KInv (wk (mk_world nodes edges order)).
Proof.
  apply (mk_steps_lift (KI 0)); eauto using (spawn_k 0), (w_event_k 0), (upd_edge_k 0).
  split; simpl; auto. split; constructor.
Qed.

(* C19 (time part): along every run of every factory the clock never goes back *)
Fixpoint iter_fstep (n : nat) (w : world) : world :=
  match n with O => w | S m => match fstep w with Some w' => iter_fstep m w' | None => w end end.

Theorem time_monotone nodes edges order n :
  let w0 := mk_world nodes edges order in
  KInv (wk (iter_fstep n w0)) /\ forall m, (m <= n)%nat -> wnow (iter_fstep m w0) <= wnow (iter_fstep n w0).
Proof.
  intros w0. pose proof (mk_world_k nodes edges order) as H0. fold w0 in H0.
  assert (forall n w, KInv (wk w) -> KInv (wk (iter_fstep n w)) /\ wnow w <= wnow (iter_fstep n w)) as G.
  { induction n0 as [|n0 IH]; simpl; intros w H; [split; auto; lia|].
    destruct (fstep w) as [w'|] eqn:E; [|split; auto; lia].
    destruct (fstep_k _ _ H E) as (A & B). destruct (IH _ A) as (C & D). split; auto. lia. }
  split; [apply G; auto|].
  intros m Hm. replace n with (m + (n - m))%nat by lia.
  assert (forall a b w, iter_fstep (a + b) w = iter_fstep b (iter_fstep a w)) as S.
  { induction a as [|a IH]; simpl; auto. intros b w. destruct (fstep w) eqn:E; auto.
    destruct b; simpl; auto. rewrite E. reflexivity. }
  rewrite S. apply G. apply G. exact H0.
Qed.

(* A predicate that does not mention the clock: from the callbacks to every run of every factory. *)
Section Run.
Variable P : world -> Prop.
Hypothesis P_pop : forall w k e cbs, pop (wk w) = Some (k, e, cbs) -> P w -> P (w <| wk := k |>).
Hypothesis P_cbs : forall l w, P w -> P (fold_left run_cb l w).

Lemma fstep_lift w w' : P w -> fstep w = Some w' -> P w'.
Proof.
  unfold fstep. intros H. destruct (wcrash w); [discriminate|].
  destruct (pop (wk w)) as [[[k e] cbs]|] eqn:E; [|discriminate]. intros [= <-]. eauto.
Qed.
Lemma iter_fstep_lift n : forall w, P w -> P (iter_fstep n w).
Proof.
  induction n as [|n IH]; simpl; intros w H; auto. destruct (fstep w) as [w'|] eqn:E; auto.
  apply IH. eapply fstep_lift; eauto.
Qed.

End Run.
