(* C07 at the level of the edge wrappers of the factory model: a put / get / cancel offered to an edge with a token that edge's
   store does not hold for the caller -- in particular a token that ANOTHER edge issued -- is refused with the documented error
   (the run ends with an unhandled RuntimeError), and no store of the factory, the kernel and the movement log are touched:
   the request stays where it was placed. *)
From Coq Require Import List ZArith Bool Arith.
From RecordUpdate Require Import RecordUpdate.
From FV Require Import Kernel World Factory.
From FV Require StoreB StoreBOrder.
Import ListNotations.

(* what a refused call leaves alone *)
Definition untouched (w w' : world) : Prop :=
  (forall e, est (get_edge w' e) = est (get_edge w e)) /\ wk w' = wk w /\ wlog w' = wlog w /\
  wnodes w' = wnodes w /\ wprocs w' = wprocs w /\ witems w' = witems w.

Lemma untouched_refl w : untouched w w.
Proof. repeat split. Qed.
Lemma upd_edge_untouched w0 w e f :
  untouched w0 w -> est (f (get_edge w e)) = est (get_edge w0 e) -> untouched w0 (upd_edge w e f).
Proof.
  intros (A & U) F. split; [|exact U]. intros e'. rewrite <- A. unfold get_edge in *. apply (nth_upd_kept_at est). rewrite F. symmetry. apply A.
Qed.
Lemma crashw_untouched w0 w c : untouched w0 w -> untouched w0 (crashw w c).
Proof. unfold crashw. destruct (wcrash w); auto. Qed.
Lemma crashw_crashed w c : wcrash w = None -> wcrash (crashw w c) = Some c.
Proof. unfold crashw. intros ->. reflexivity. Qed.

(* a store that refuses hands back the state it was given: the edge wrapper writes that back and raises *)
Lemma refused w e c :
  let w' := crashw (upd_edge w e (fun x => x <| est := est (get_edge w e) |>)) c in
  untouched w w' /\ (wcrash w = None -> wcrash w' = Some c).
Proof.
  split; [|exact (crashw_crashed (upd_edge w e _) c)]. apply crashw_untouched, upd_edge_untouched; [apply untouched_refl|reflexivity].
Qed.

Theorem cancel_put_refused w e t :
  StoreBOrder.illformed (est (get_edge w e)) (StoreB.CPut t) = true ->
  let w' := e_cancel_put w e t in
  untouched w w' /\ (wcrash w = None -> wcrash w' = Some (CRuntime 10)).
Proof. intros I. unfold e_cancel_put, store_op. rewrite (StoreBOrder.rejected_is_noop _ _ I). apply refused. Qed.

Theorem cancel_get_refused w e t :
  StoreBOrder.illformed (est (get_edge w e)) (StoreB.CGet t) = true ->
  let w' := e_cancel_get w e t in
  untouched w w' /\ (wcrash w = None -> wcrash w' = Some (CRuntime 11)).
Proof. intros I. unfold e_cancel_get, store_op. rewrite (StoreBOrder.rejected_is_noop _ _ I). apply refused. Qed.

Theorem get_refused w e p t n :
  StoreBOrder.illformed (est (get_edge w e)) (StoreB.Get p t) = true ->
  let r := e_get w e p t n in
  untouched w (fst r) /\ snd r = None /\ (wcrash w = None -> wcrash (fst r) = Some (CRuntime 33)).
Proof.
  intros I. unfold e_get. rewrite (StoreBOrder.rejected_is_noop _ _ I).
  destruct (refused w e (CRuntime 33)) as (U & C). split; [exact U|split; [reflexivity|exact C]].
Qed.

(* the hand-over: a Fleet refuses at once; a Buffer has drawn its delay by then (its delay stream has moved on, and a negative
   delay is the assertion of the Buffer, not the store's refusal) -- the stores, the kernel and the log are as before *)
Theorem put_refused w e p t i :
  StoreBOrder.illformed (est (get_edge w e)) (StoreB.Put p t i) = true ->
  let w' := e_put w e p t i in
  (forall e', est (get_edge w' e') = est (get_edge w e')) /\ wk w' = wk w /\ wlog w' = wlog w /\
  wnodes w' = wnodes w /\ wprocs w' = wprocs w /\ witems w' = witems w /\
  (wcrash w = None -> exists c, wcrash w' = Some c /\ (c = CRuntime 31 \/ c = CRuntime 32 \/ c = CAssert 30)).
Proof.
  intros I w'.
  (* in each of the three cases the call ends in a crash of a world whose stores are the old ones *)
  enough (exists w1 c, w' = crashw w1 c /\ untouched w w1 /\ wcrash w1 = wcrash w /\
                       (c = CRuntime 31 \/ c = CRuntime 32 \/ c = CAssert 30)) as (w1 & c & -> & U & EC & D).
  { destruct (crashw_untouched w w1 c U) as (A1 & A2 & A3 & A4 & A5 & A6). repeat split; auto.
    intros NC. exists c. split; [apply crashw_crashed; congruence|exact D]. }
  unfold w', e_put. destruct (ek (get_edge w e)); [destruct (_ <? 0)%Z|]; rewrite ?(StoreBOrder.rejected_is_noop _ _ I);
    eexists _, _; (split; [reflexivity|split; [|split; [reflexivity|auto]]]).
  - apply upd_edge_untouched; [apply untouched_refl|reflexivity].
  - apply upd_edge_untouched; [apply upd_edge_untouched; [apply untouched_refl|]|]; reflexivity.
  - apply upd_edge_untouched; [apply untouched_refl|reflexivity].
Qed.

(* a token that another edge holds and this edge does not: cancelling it HERE is refused and it is still held THERE *)
Definition holds_put (w : world) (e t : nat) : bool :=
  existsb (StoreB.tokb t) (StoreB.putq (est (get_edge w e))) || existsb (StoreB.tokb t) (StoreB.putres (est (get_edge w e))).
Definition holds_get (w : world) (e t : nat) : bool :=
  existsb (StoreB.tokb t) (StoreB.getq (est (get_edge w e))) || existsb (StoreB.tokb2 t) (StoreB.getres (est (get_edge w e))).

Theorem foreign_cancel_put_refused w e e' t :
  holds_put w e t = false -> holds_put w e' t = true ->
  let w' := e_cancel_put w e t in
  holds_put w' e' t = true /\ holds_put w' e t = false /\ (wcrash w = None -> wcrash w' = Some (CRuntime 10)).
Proof.
  intros N H w'. assert (StoreBOrder.illformed (est (get_edge w e)) (StoreB.CPut t) = true) as I.
  { unfold holds_put in N. apply orb_false_elim in N as (A & B). cbn [StoreBOrder.illformed]. rewrite A, B. reflexivity. }
  destruct (cancel_put_refused w e t I) as ((U & _) & C). fold w' in U, C.
  unfold holds_put in *. rewrite !U. unfold holds_put in N. auto.
Qed.

Theorem foreign_cancel_get_refused w e e' t :
  holds_get w e t = false -> holds_get w e' t = true ->
  let w' := e_cancel_get w e t in
  holds_get w' e' t = true /\ holds_get w' e t = false /\ (wcrash w = None -> wcrash w' = Some (CRuntime 11)).
Proof.
  intros N H w'. assert (StoreBOrder.illformed (est (get_edge w e)) (StoreB.CGet t) = true) as I.
  { unfold holds_get in N. apply orb_false_elim in N as (A & B). cbn [StoreBOrder.illformed]. rewrite A, B. reflexivity. }
  destruct (cancel_get_refused w e t I) as ((U & _) & C). fold w' in U, C.
  unfold holds_get in *. rewrite !U. auto.
Qed.
