(* Whole-factory lifting of ANY invariant of the bound-item store that every store operation keeps
   unconditionally: the node and edge code of a factory reaches the stores only through StoreB.step, so
   such an invariant holds on every edge in every reachable world of every configuration (it survives
   every operation of the world; Steps.v and FactoryInv.v lift that to every run).  Instantiated at the end for
   C05 (both waiting queues sorted by (priority, arrival number)),
   C01 (items + granted space reservations never exceed the capacity) and
   C04 / C10 (no request waits while the edge could serve it). *)
From Coq Require Import List ZArith Lia Bool Arith.
From RecordUpdate Require Import RecordUpdate.
From FV Require Import Kernel World Factory Steps.
From FV Require FactoryInv.
From FV Require StoreB StoreBProps StoreBOrder StoreBCap StoreBWeak.
Import ListNotations.
Open Scope Z_scope.

Section Generic.
Variable SP : StoreB.store -> Prop.
Hypothesis SP_step : forall s o, SP s -> SP (StoreB.step_st s o).
Hypothesis SP_empty : SP (est edge0).
Definition EOK (ed : edge) : Prop := SP (est ed).
Definition QE (w : world) : Prop := Forall EOK (wedges w).

Create HintDb qdb.
Lemma crashw_q w c : QE w -> QE (crashw w c).
Proof. unfold crashw. destruct (wcrash w); auto. Qed.

Lemma upd_edge_all w e f : (forall x, EOK x -> EOK (f x)) -> QE w -> QE (upd_edge w e f).
Proof. unfold QE, upd_edge. intros K H. cbn [wedges set]. simpl. apply upd_forall; auto. Qed.
Lemma upd_edge_at w e f : (EOK (get_edge w e) -> EOK (f (get_edge w e))) -> QE w -> QE (upd_edge w e f).
Proof. intros K H. unfold QE, upd_edge. cbn [wedges set]. simpl. apply (upd_forall_at _ _ _ _ edge0); assumption. Qed.
Lemma logw_q w x : QE w -> QE (logw w x).
Proof. auto. Qed.
Lemma upd_node_q w e f : QE w -> QE (upd_node w e f).
Proof. auto. Qed.
Lemma upd_proc_q w e f : QE w -> QE (upd_proc w e f).
Proof. auto. Qed.
Lemma upd_item_q w e f : QE w -> QE (upd_item w e f).
Proof. auto. Qed.
Lemma setpc_q w p pc : QE w -> QE (setpc w p pc).
Proof. auto. Qed.
#[local] Hint Resolve crashw_q logw_q upd_node_q upd_proc_q upd_item_q setpc_q : qdb.
Ltac eok_side :=
  let x := fresh in let Hx := fresh in intros x Hx;
  first [exact Hx
        | repeat (match goal with
                  | |- context [if ?b then _ else _] => destruct b
                  | |- context [match ?b with _ => _ end] => destruct b
                  end); exact Hx].
#[local] Hint Extern 3 (QE (upd_edge _ _ _)) => (apply upd_edge_all; [eok_side|]) : qdb.

Lemma w_succeed_q w e s : QE w -> QE (w_succeed w e s).
Proof.
  unfold w_succeed. intros H. destruct (succeed (wk w) e) eqn:E; [exact H|apply crashw_q; auto].
Qed.
#[local] Hint Resolve w_succeed_q : qdb.

Lemma w_succeed_all_q es : forall w, QE w -> QE (w_succeed_all w es).
Proof. apply succeed_all_lift; eauto using crashw_q, w_succeed_q. Qed.
#[local] Hint Resolve w_succeed_all_q : qdb.

Lemma w_event_q w w1 e : w_event w = (w1, e) -> QE w -> QE w1.
Proof. unfold w_event. simpl. intros [= <- _] H. exact H. Qed.

Lemma w_timeout_q w d w1 e : w_timeout w d = (w1, e) -> QE w -> QE w1.
Proof.
  unfold w_timeout. destruct (d <? 0).
  - intros [= <- _] H. auto with qdb.
  - destruct (timeout (wk w) d) as [k e0]. intros [= <- _] H. exact H.
Qed.

Lemma w_any_of_q w es w1 c : w_any_of w es = (w1, c) -> QE w -> QE w1.
Proof.
  unfold w_any_of. destruct (any_of (wk w) es) as [k e0]. intros [= <- _] H. exact H.
Qed.

Lemma spawn_q w p w1 pid d : spawn w p = (w1, pid, d) -> QE w -> QE w1.
Proof.
  unfold spawn. intros E H.
  destruct (w_event w) as [wa done] eqn:E1. destruct (w_event wa) as [wb ini] eqn:E2.
  inversion E; subst. clear E.
  assert (QE wb) as Hb by (eapply w_event_q; [exact E2|]; eapply w_event_q; [exact E1|]; exact H). exact Hb.
Qed.

Lemma e_update_level_q w e : QE w -> QE (e_update_level w e).
Proof. intros H. unfold e_update_level. apply upd_edge_all; auto. Qed.
#[local] Hint Resolve e_update_level_q : qdb.

(* the one place where the hypothesis on the store operations is used *)
Lemma step_est_q w e o s' r ts :
  StoreB.step (est (get_edge w e)) o = (s', r, ts) -> QE w -> QE (upd_edge w e (fun x => x <| est := s' |>)).
Proof.
  intros E H. apply upd_edge_at; auto. intros K. unfold EOK in *. cbn.
  pose proof (SP_step _ o K) as Q. unfold StoreB.step_st in Q. rewrite E in Q. exact Q.
Qed.

Lemma store_op_q w e o w1 r ts : store_op w e o = (w1, r, ts) -> QE w -> QE w1.
Proof. unfold store_op. destruct (StoreB.step _ _) as [[s' r0] ts0] eqn:E. intros [= <- _ _]. eapply step_est_q, E. Qed.
#[local] Hint Resolve w_event_q store_op_q : qdb.

Lemma out_err_q w r s : QE w -> QE (out_err w r s).
Proof. apply out_err_lift; eauto using crashw_q. Qed.
#[local] Hint Resolve out_err_q : qdb.

Lemma e_reserve_put_q w e p w1 t : e_reserve_put w e p = (w1, t) -> QE w -> QE w1.
Proof. eapply reserve_put_lift with (okop := fun _ => True); eauto with qdb. Qed.

Lemma e_reserve_get_q w e p w1 t : e_reserve_get w e p = (w1, t) -> QE w -> QE w1.
Proof. eapply reserve_get_lift with (okop := fun _ => True); eauto with qdb. Qed.

Lemma e_cancel_put_q w e t : QE w -> QE (e_cancel_put w e t).
Proof. eapply cancel_put_lift with (okop := fun _ => True); eauto with qdb. Qed.
Lemma e_cancel_get_q w e t : QE w -> QE (e_cancel_get w e t).
Proof. eapply cancel_get_lift with (okop := fun _ => True); eauto with qdb. Qed.
#[local] Hint Resolve e_cancel_put_q e_cancel_get_q : qdb.

Lemma fleet_after_put_q w e : QE w -> QE (fleet_after_put w e).
Proof. apply fleet_after_put_lift; eauto using crashw_q, w_succeed_q. Qed.
#[local] Hint Resolve fleet_after_put_q : qdb.

(* an edge index out of range reads the default edge: e_put_q' does not need SP_empty for it *)
Lemma e_put_q' w e p t i : QE w -> QE (e_put w e p t i).
Proof using SP_step.
  unfold e_put. intros H. destruct (ek (get_edge w e)).
  - destruct (_ <? 0); [auto with qdb|].
    destruct (StoreB.step _ _) as [[s' r] ts] eqn:ES.
    set (w0 := upd_edge w e (fun x => x <| edptr ::= S |>)).
    assert (E0 : est (get_edge w0 e) = est (get_edge w e)) by (apply (nth_upd_kept est); reflexivity).
    rewrite <- E0 in ES. assert (QE w0) as H0 by (unfold w0; auto with qdb).
    pose proof (step_est_q w0 e _ _ _ _ ES H0) as H1.
    destruct r; auto with qdb.
    destruct (spawn _ _) as [[w2 pid] d] eqn:E. apply logw_q, w_succeed_all_q.
    eapply spawn_q; [exact E|]. apply e_update_level_q. exact H1.
  - destruct (StoreB.step _ _) as [[s' r] ts] eqn:ES. pose proof (step_est_q w e _ _ _ _ ES H) as H1.
    destruct r; auto 8 with qdb.
Qed.
Lemma e_put_q w e p t i : QE w -> QE (e_put w e p t i).
Proof using SP_step SP_empty. apply e_put_q'. Qed.
#[local] Hint Resolve e_put_q' : qdb.

Lemma e_get_q w e p t n w1 r : e_get w e p t n = (w1, r) -> QE w -> QE w1.
Proof.
  unfold e_get. intros E H. destruct (StoreB.step _ _) as [[s' r0] ts] eqn:ES. pose proof (step_est_q w e _ _ _ _ ES H) as H1.
  destruct r0 as [?| |?|e0]; try destruct e0; inversion E; subst; auto 10 with qdb.
Qed.

Lemma update_state_q w n s : QE w -> QE (update_state w n s).
Proof. apply update_state_lift. intros w' f _. apply upd_node_q. Qed.
#[local] Hint Resolve update_state_q : qdb.

Lemma draw_delay_q w n w1 d : draw_delay w n = (w1, d) -> QE w -> QE w1.
Proof. unfold draw_delay. intros [= <- _] H. auto with qdb. Qed.

Lemma cancel_others_qq w es ts keep put : QE w -> QE (cancel_others w es ts keep put).
Proof. apply cancel_others_lift; eauto using e_cancel_put_q, e_cancel_get_q. Qed.
#[local] Hint Resolve cancel_others_qq : qdb.

Lemma set_creation_q w i n : QE w -> QE (set_creation w i n).
Proof. intros H. unfold set_creation. auto 8 with qdb. Qed.
Lemma update_state_rep_q w n : QE w -> QE (update_state_rep w n).
Proof. apply (update_state_rep_lift QE crashw_q). intros w' f _. apply upd_node_q. Qed.
Lemma occupancy_q w n a : QE w -> QE (occupancy w n a).
Proof. intros H. unfold occupancy. auto 8 with qdb. Qed.
Lemma set_thread_q w n p b : QE w -> QE (set_thread w n p b).
Proof. intros H. unfold set_thread. auto 8 with qdb. Qed.
Lemma add_blocked_time_q w p n : QE w -> QE (add_blocked_time w p n).
Proof. intros H. unfold add_blocked_time. auto 8 with qdb. Qed.
#[local] Hint Resolve set_creation_q update_state_rep_q occupancy_q set_thread_q add_blocked_time_q : qdb.

Lemma EOK_frame f : edge_frame f -> forall x, EOK x -> EOK (f x).
Proof. intros F x. unfold EOK. rewrite (ef_est f F). auto. Qed.
#[local] Hint Resolve w_timeout_q w_any_of_q spawn_q e_reserve_put_q e_reserve_get_q e_get_q EOK_frame upd_edge_all : qdb.

Lemma step_q kd pc0 p n w w' : step kd pc0 p n w w' -> QE w -> QE w'.
Proof using SP_step. destruct 1; intros HQ; auto 7 with qdb; eauto 7 using e_put_q' with qdb. Qed.
Lemma discard_q n w1 w t i : QE w1 -> nblocking (get_node w1 n) = false -> QE w -> t = wnow w -> QE (discard w n t i).
Proof. intros _ _ H _. exact H. Qed.

Lemma sub_q kd pc0 p n w w' : (reach kd pc0 p n w w -> reach kd pc0 p n w w') -> QE w -> QE w'.
Proof using SP_step. apply (sub_lift QE step_q discard_q). Qed.

(* the parts of a block that touch no store keep QE whatever the store invariant is *)
Lemma setk_q w k : QE w -> QE (w <| wk := k |>).
Proof. auto. Qed.
#[local] Hint Resolve setk_q : qdb.
Lemma source_loop_q w p n : QE w -> QE (fst (source_loop w p n)).
Proof.
  intros H. unfold source_loop. cbv zeta. destruct (draw_delay _ _) as [w1 d] eqn:E1.
  assert (QE w1) by (eapply draw_delay_q; [exact E1|apply update_state_q, H]).
  destruct (d <? 0); cbn [fst]; [auto with qdb|]. destruct (w_timeout w1 d) as [w2 t] eqn:E2. apply setpc_q. eapply w_timeout_q; eauto.
Qed.
Lemma machine_request_q w p n : QE w -> QE (fst (machine_request w p n)).
Proof.
  intros H. unfold machine_request. cbv zeta. destruct (res_request _ _ _) as [[[k r] q]|]; cbn [fst]; auto 8 with qdb.
Qed.
Lemma machine_start_worker_q w p n i : QE w -> QE (fst (machine_start_worker w p n i)).
Proof.
  intros H. unfold machine_start_worker. cbv zeta. destruct (draw_delay _ _) as [w1 d] eqn:E1.
  assert (QE w1) by (eapply draw_delay_q; eauto). destruct (d <? 0); cbn [fst]; [auto with qdb|].
  destruct (spawn _ _) as [[w2 wp] dn] eqn:E2. apply machine_request_q, update_state_rep_q, upd_node_q. eapply spawn_q; eauto.
Qed.
Lemma worker_release_q w p n : QE w -> QE (fst (worker_release w p n)).
Proof.
  intros H. unfold worker_release. cbv zeta. destruct (res_release _ _ _ _) as [[[k r] g]|]; cbn [fst]; auto 8 with qdb.
Qed.
Lemma check_state_q w n : QE w -> QE (check_state w n).
Proof.
  intros H. unfold check_state. destruct (count_threads _).
  repeat match goal with |- context [if ?b then _ else _] => destruct b end; auto using update_state_q with qdb.
Qed.
Lemma sc_request_q w p n pc : QE w -> QE (fst (sc_request w p n pc)).
Proof.
  intros H. unfold sc_request. destruct (res_request _ _ _) as [[[k r] q]|]; cbn [fst]; auto 8 with qdb.
Qed.
Lemma sc_release_q w p n : QE w -> QE (fst (sc_release w p n)).
Proof.
  intros H. unfold sc_release. destruct (res_release _ _ _ _) as [[[k r] g]|]; cbn [fst]; auto 8 with qdb.
Qed.
Lemma combiner_head_q w p n : QE w -> QE (fst (combiner_head w p n)).
Proof. intros H. apply sc_request_q, check_state_q, H. Qed.
Lemma combiner_loop_q w p n : QE w -> QE (fst (combiner_loop w p n)).
Proof.
  intros H. unfold combiner_loop. cbv zeta. destruct (ptks (me w p)).
  - destruct (draw_delay _ _) as [w1 d] eqn:E1. assert (QE w1) by (eapply draw_delay_q; eauto).
    destruct (d <? 0); cbn [fst]; [auto with qdb|]. destruct (w_timeout _ d) as [w2 t] eqn:E2. apply setpc_q.
    eapply w_timeout_q; [exact E2|]. apply upd_proc_q, update_state_q, upd_proc_q. assumption.
  - destruct (any_triggered _ _); cbn [fst]; [auto with qdb|].
    destruct (w_any_of _ _) as [w1 c] eqn:E. cbn [fst]. apply setpc_q, upd_proc_q. eapply w_any_of_q; eauto.
Qed.

Lemma sink_loop_q w p n : QE w -> QE (fst (sink_loop w p n)).
Proof using SP_step. apply (sub_q KSinkB 0 p n), sink_loop_r. Qed.
Lemma sc_dispatch_q w p n c ph : QE w -> QE (fst (sc_dispatch w p n c ph)).
Proof using SP_step. apply (sub_q KSplitWorker 0 p n), sc_dispatch_r. left; reflexivity. Qed.
Lemma sc_next_q w p n : QE w -> QE (fst (sc_next w p n)).
Proof using SP_step. apply (sub_q KSplitWorker 0 p n), sc_next_r. left; reflexivity. Qed.
Lemma sc_worker_cont_q w p n : QE w -> QE (fst (sc_worker_cont w p n)).
Proof using SP_step SP_empty. apply (sub_q KSplitWorker 0 p n), sc_worker_cont_r. left; reflexivity. Qed.
Lemma splitter_head_q w p n : QE w -> QE (fst (splitter_head w p n)).
Proof using SP_step. apply (sub_q KSplitterB 0 p n), splitter_head_r. Qed.
Lemma splitter_start_q w p n pal : QE w -> QE (fst (splitter_start w p n pal)).
Proof using SP_step. apply (sub_q KSplitterB 0 p n), splitter_start_r. Qed.

Lemma run_cbs_q l : forall w, QE w -> QE (fold_left run_cb l w).
Proof using SP_step SP_empty. apply (run_cbs_lift QE step_q discard_q); auto with qdb; intros w n k r E H; apply upd_node_q; exact H. Qed.

Theorem fstep_q w w' : QE w -> fstep w = Some w' -> QE w'.
Proof using SP_step SP_empty. apply (FactoryInv.fstep_lift QE); auto using run_cbs_q. Qed.

Lemma mk_world_q nodes edges order : Forall EOK edges -> QE (mk_world nodes edges order).
Proof. intros H0. apply (FactoryInv.mk_steps_lift QE); eauto with qdb. Qed.

Theorem store_invariant_everywhere nodes edges order n :
  Forall EOK edges ->
  forall i ed, nth_error (wedges (FactoryInv.iter_fstep n (mk_world nodes edges order))) i = Some ed -> SP (est ed).
Proof using SP_step SP_empty.
  intros H0 i ed E.
  pose proof (FactoryInv.iter_fstep_lift QE (fun w k _ _ _ H => H) run_cbs_q n _ (mk_world_q nodes edges order H0)) as K.
  eapply Forall_forall in K; [exact K|]. eapply nth_error_In; eauto.
Qed.
End Generic.

(* C05 at the factory level: every configuration whose edges start with sorted (e.g. empty) waiting
   queues, every number of kernel steps: on every edge both waiting queues are sorted by
   (priority, arrival number) *)
Theorem queues_sorted_everywhere nodes edges order n :
  Forall (fun ed => StoreBOrder.QInv (est ed)) edges ->
  forall i ed, nth_error (wedges (FactoryInv.iter_fstep n (mk_world nodes edges order))) i = Some ed ->
    StoreBOrder.QInv (est ed).
Proof.
  apply (store_invariant_everywhere StoreBOrder.QInv StoreBOrder.step_qinv).
  unfold edge0. simpl. apply StoreBOrder.init_qinv.
Qed.

(* C01 at the factory level: every configuration whose edges start within their capacity (e.g. empty),
   every number of kernel steps: on every edge granted space reservations + items never exceed the
   capacity (StoreBCap.cap_step needs no side condition on the items, so it lifts) *)
Theorem capacity_respected_everywhere nodes edges order n :
  Forall (fun ed => StoreBCap.CapOK (est ed)) edges ->
  forall i ed, nth_error (wedges (FactoryInv.iter_fstep n (mk_world nodes edges order))) i = Some ed ->
    (length (StoreB.putres (est ed)) + length (StoreB.transit (est ed)) + length (StoreB.ready (est ed)) <= StoreB.cap (est ed))%nat.
Proof.
  intros H i ed E.
  apply (store_invariant_everywhere StoreBCap.CapOK StoreBCap.cap_step (StoreBCap.init_cap _ _ _) nodes edges order n H i ed E).
Qed.

(* C04 / C10 at the factory level: every configuration whose Buffer / Fleet edges start empty (or in
   any state satisfying WN), every number of kernel steps: on every edge no space request is waiting
   while the edge could grant it and no retrieval request is waiting while an unreserved item is
   ready -- no lost wake-up anywhere in any factory (StoreBWeak.wn_step needs no side condition) *)
Theorem no_lost_wakeup_everywhere nodes edges order n :
  Forall (fun ed => StoreBWeak.WN (est ed)) edges ->
  forall i ed, nth_error (wedges (FactoryInv.iter_fstep n (mk_world nodes edges order))) i = Some ed ->
    StoreBProps.NoLost (est ed) /\ StoreBWeak.W (est ed).
Proof.
  intros H i ed E.
  assert (StoreBWeak.WN (est ed)) as (_ & A & B).
  { apply (store_invariant_everywhere StoreBWeak.WN StoreBWeak.wn_step (StoreBWeak.init_wn StoreB.KBuffer StoreB.FIFO 0 eq_refl) nodes edges order n H i ed E). }
  split; auto.
Qed.
