(* Whole-factory invariant for C18 (counters): in every reachable world of every configuration a node's
   counters of generated, discarded and received items equal the number of such events in the trace.
   A counter and its trace entry move in one operation of the world (Steps.v: S_gen, S_recv, discard), so the
   predicate survives every operation; Steps.v and FactoryInv.v lift that to every run. *)
From Coq Require Import List ZArith Lia Bool Arith.
From RecordUpdate Require Import RecordUpdate.
From FV Require Import Kernel World Factory Steps.
From FV Require FactoryInv.
From FV Require StoreB.
Import ListNotations.
Open Scope Z_scope.

Definition is_gen (n : nat) (x : tev) : bool := match x with LGen _ m _ => Nat.eqb m n | _ => false end.
Definition is_disc (n : nat) (x : tev) : bool := match x with LDiscard _ m _ => Nat.eqb m n | _ => false end.
Definition is_recv (n : nat) (x : tev) : bool := match x with LRecv _ m _ _ => Nat.eqb m n | _ => false end.
Definition cnt (p : tev -> bool) (l : list tev) : nat := length (filter p l).
Definition counted (x : tev) : bool := match x with LGen _ _ _ | LDiscard _ _ _ | LRecv _ _ _ _ => true | _ => false end.

Definition COK (log : list tev) (n : nat) (nd : node) : Prop :=
  ngen nd = cnt (is_gen n) log /\ ndisc nd = cnt (is_disc n) log /\ nrecv nd = cnt (is_recv n) log.
Definition CN (w : world) : Prop := forall n, (n < length (wnodes w))%nat -> COK (wlog w) n (get_node w n).

Lemma cnt_snoc p l x : cnt p (l ++ [x]) = (cnt p l + if p x then 1 else 0)%nat.
Proof. unfold cnt. rewrite filter_app, app_length. simpl. destruct (p x); reflexivity. Qed.

(* a node update that leaves the three counters alone *)
Lemma upd_node_keep w n f :
  (forall x, ngen (f x) = ngen x /\ ndisc (f x) = ndisc x /\ nrecv (f x) = nrecv x) -> CN w -> CN (upd_node w n f).
Proof.
  intros K H m L. unfold upd_node in *. cbn [wnodes wlog set] in *. simpl in *. rewrite upd_length in L.
  specialize (H m L). unfold get_node in *. cbn [wnodes set]. simpl. destruct (Nat.eq_dec n m) as [->|NE].
  - rewrite nth_upd_same by exact L. destruct (K (nth m (wnodes w) node0)) as (A & B & C). unfold COK in *. rewrite A, B, C. exact H.
  - rewrite nth_upd_other by exact NE. exact H.
Qed.
(* a trace entry that is not a generation, a discard or a reception *)
Lemma logw_c w x : counted x = false -> CN w -> CN (logw w x).
Proof.
  intros Q H m L. specialize (H m L). unfold logw, COK in *. cbn [wlog wnodes set] in *. simpl in *. unfold get_node in *. cbn [wnodes set]. simpl.
  rewrite !cnt_snoc. destruct x; try discriminate; simpl; rewrite !Nat.add_0_r; exact H.
Qed.

(* the three places where a counter moves: the counter and the trace move together.  [bg], [bd], [br] say which
   of the three counters the update [f] increments, and the entry [x] is counted for node n only, as the same kind *)
Lemma pair_core w n (f : node -> node) x (bg bd br : bool) :
  (forall y, ngen (f y) = ((if bg then 1 else 0) + ngen y)%nat /\ ndisc (f y) = ((if bd then 1 else 0) + ndisc y)%nat /\
             nrecv (f y) = ((if br then 1 else 0) + nrecv y)%nat) ->
  (forall m, is_gen m x = (bg && Nat.eqb n m) /\ is_disc m x = (bd && Nat.eqb n m) /\ is_recv m x = (br && Nat.eqb n m)) ->
  CN w -> CN (logw (upd_node w n f) x).
Proof.
  intros K X H m L. unfold logw, upd_node in *. cbn [wnodes wlog set] in *. simpl in *. rewrite upd_length in L.
  specialize (H m L). unfold get_node, COK in *. cbn [wnodes set]. simpl. rewrite !cnt_snoc.
  destruct (X m) as (X1 & X2 & X3). rewrite X1, X2, X3. destruct (Nat.eq_dec n m) as [->|NE].
  - rewrite nth_upd_same by exact L. rewrite Nat.eqb_refl, !andb_true_r. destruct (K (nth m (wnodes w) node0)) as (A & B & C).
    rewrite A, B, C. destruct H as (<- & <- & <-). auto using Nat.add_comm.
  - rewrite nth_upd_other by exact NE. destruct (Nat.eqb_spec n m); [congruence|]. rewrite !andb_false_r, !Nat.add_0_r. exact H.
Qed.
Lemma gen_pair w n t i : CN w -> CN (logw (upd_node w n (fun x => x <| ngen ::= S |>)) (LGen t n i)).
Proof. apply (pair_core w n _ _ true false false); repeat split. Qed.
Lemma disc_pair w n t i : CN w -> CN (logw (upd_node w n (fun x => x <| ndisc ::= S |>)) (LDiscard t n i)).
Proof. apply (pair_core w n _ _ false true false); repeat split. Qed.
Lemma recv_pair w n t i c g : CN w -> CN (logw (upd_node w n (fun x => x <| nrecv ::= S |> <| ncycle ::= g |>)) (LRecv t n i c)).
Proof. apply (pair_core w n _ _ false false true); repeat split. Qed.

Create HintDb cdb.

Lemma crashw_c w c : CN w -> CN (crashw w c).
Proof. unfold crashw. destruct (wcrash w); auto. Qed.
Lemma upd_edge_c w e f : CN w -> CN (upd_edge w e f).
Proof. auto. Qed.
Lemma upd_proc_c w e f : CN w -> CN (upd_proc w e f).
Proof. auto. Qed.
Lemma upd_item_c w e f : CN w -> CN (upd_item w e f).
Proof. auto. Qed.
Lemma setpc_c w p pc : CN w -> CN (setpc w p pc).
Proof. auto. Qed.
#[local] Hint Resolve crashw_c upd_edge_c upd_proc_c upd_item_c setpc_c : cdb.
Ltac cn_side :=
  let x := fresh in intros x;
  first [repeat split; reflexivity
        | repeat (match goal with
                  | |- context [if ?b then _ else _] => destruct b
                  | |- context [match ?b with _ => _ end] => destruct b
                  end); repeat split; reflexivity].
#[local] Hint Extern 1 (CN (logw (upd_node _ _ _) (LGen _ _ _))) => apply gen_pair : cdb.
#[local] Hint Extern 1 (CN (logw (upd_node _ _ _) (LDiscard _ _ _))) => apply disc_pair : cdb.
#[local] Hint Extern 1 (CN (logw (upd_node _ _ _) (LRecv _ _ _ _))) => apply recv_pair : cdb.
#[local] Hint Extern 2 (CN (logw _ _)) => (apply logw_c; [reflexivity|]) : cdb.
#[local] Hint Extern 3 (CN (upd_node _ _ _)) => (apply upd_node_keep; [cn_side|]) : cdb.

Lemma w_succeed_c w e s : CN w -> CN (w_succeed w e s).
Proof.
  unfold w_succeed. intros H. destruct (succeed (wk w) e) eqn:E; [exact H|apply crashw_c; auto].
Qed.
#[local] Hint Resolve w_succeed_c : cdb.

Lemma w_succeed_all_c es : forall w, CN w -> CN (w_succeed_all w es).
Proof. apply succeed_all_lift; eauto using crashw_c, w_succeed_c. Qed.
#[local] Hint Resolve w_succeed_all_c : cdb.

Lemma w_event_c w w1 e : w_event w = (w1, e) -> CN w -> CN w1.
Proof. unfold w_event. simpl. intros [= <- _] H. exact H. Qed.

Lemma w_timeout_c w d w1 e : w_timeout w d = (w1, e) -> CN w -> CN w1.
Proof.
  unfold w_timeout. destruct (d <? 0).
  - intros [= <- _] H. auto with cdb.
  - destruct (timeout (wk w) d) as [k e0]. intros [= <- _] H. exact H.
Qed.

Lemma w_any_of_c w es w1 c : w_any_of w es = (w1, c) -> CN w -> CN w1.
Proof.
  unfold w_any_of. destruct (any_of (wk w) es) as [k e0]. intros [= <- _] H. exact H.
Qed.

Lemma spawn_c w p w1 pid d : spawn w p = (w1, pid, d) -> CN w -> CN w1.
Proof.
  unfold spawn. intros E H.
  destruct (w_event w) as [wa done] eqn:E1. destruct (w_event wa) as [wb ini] eqn:E2.
  inversion E; subst. exact (w_event_c _ _ _ E2 (w_event_c _ _ _ E1 H)).
Qed.

Lemma e_update_level_c w e : CN w -> CN (e_update_level w e).
Proof. auto. Qed.
#[local] Hint Resolve e_update_level_c : cdb.

Lemma store_op_c w e o w1 r ts : store_op w e o = (w1, r, ts) -> CN w -> CN w1.
Proof. unfold store_op. destruct (StoreB.step _ _) as [[s' r0] ts0]. intros [= <- _ _] H. auto. Qed.
#[local] Hint Resolve w_event_c store_op_c : cdb.

Lemma out_err_c w r s : CN w -> CN (out_err w r s).
Proof. apply out_err_lift; eauto using crashw_c. Qed.
#[local] Hint Resolve out_err_c : cdb.

Lemma e_reserve_put_c w e p w1 t : e_reserve_put w e p = (w1, t) -> CN w -> CN w1.
Proof. eapply reserve_put_lift with (okop := fun _ => True); eauto with cdb. Qed.

Lemma e_reserve_get_c w e p w1 t : e_reserve_get w e p = (w1, t) -> CN w -> CN w1.
Proof. eapply reserve_get_lift with (okop := fun _ => True); eauto with cdb. Qed.

Lemma e_cancel_put_c w e t : CN w -> CN (e_cancel_put w e t).
Proof. eapply cancel_put_lift with (okop := fun _ => True); eauto with cdb. Qed.
Lemma e_cancel_get_c w e t : CN w -> CN (e_cancel_get w e t).
Proof. eapply cancel_get_lift with (okop := fun _ => True); eauto with cdb. Qed.
#[local] Hint Resolve e_cancel_put_c e_cancel_get_c : cdb.

Lemma fleet_after_put_c w e : CN w -> CN (fleet_after_put w e).
Proof. apply fleet_after_put_lift; eauto using crashw_c, w_succeed_c. Qed.
#[local] Hint Resolve fleet_after_put_c : cdb.

Lemma e_put_c w e p t i : CN w -> CN (e_put w e p t i).
Proof. apply (put_lift CN crashw_c w_succeed_c upd_edge_c); [intros *; apply spawn_c|intros w0 x M; apply logw_c; destruct x; try contradiction M; reflexivity]. Qed.
#[local] Hint Resolve e_put_c : cdb.

Lemma e_get_c w e p t n w1 r : e_get w e p t n = (w1, r) -> CN w -> CN w1.
Proof. apply (get_lift CN crashw_c w_succeed_c upd_edge_c). intros w0 x M. apply logw_c. destruct x; try contradiction M; reflexivity. Qed.

Lemma keep_frame f : node_frame f -> forall x, ngen (f x) = ngen x /\ ndisc (f x) = ndisc x /\ nrecv (f x) = nrecv x.
Proof. intros F x. rewrite (nf_ngen f F), (nf_ndisc f F), (nf_nrecv f F). auto. Qed.
Lemma update_state_c w n s : CN w -> CN (update_state w n s).
Proof. apply update_state_lift. intros w' f F. apply upd_node_keep, keep_frame, F. Qed.
#[local] Hint Resolve update_state_c : cdb.

Lemma cancel_others_cc w es ts keep put : CN w -> CN (cancel_others w es ts keep put).
Proof. apply cancel_others_lift; eauto using e_cancel_put_c, e_cancel_get_c. Qed.
#[local] Hint Resolve cancel_others_cc : cdb.

Lemma set_creation_c w i n : CN w -> CN (set_creation w i n).
Proof. intros H. unfold set_creation. auto 8 with cdb. Qed.
Lemma update_state_rep_c w n : CN w -> CN (update_state_rep w n).
Proof. apply (update_state_rep_lift CN crashw_c). intros w' f F. apply upd_node_keep, keep_frame, F. Qed.
Lemma occupancy_c w n a : CN w -> CN (occupancy w n a).
Proof. intros H. unfold occupancy. auto 8 with cdb. Qed.
Lemma set_thread_c w n p b : CN w -> CN (set_thread w n p b).
Proof. intros H. unfold set_thread. auto 8 with cdb. Qed.
Lemma add_blocked_time_c w p n : CN w -> CN (add_blocked_time w p n).
Proof. intros H. unfold add_blocked_time. auto 8 with cdb. Qed.
#[local] Hint Resolve set_creation_c update_state_rep_c occupancy_c set_thread_c add_blocked_time_c : cdb.

Lemma neutral_not_counted t x : neutral_entry t x -> counted x = false.
Proof. destruct x; simpl; intros H; auto; contradiction. Qed.
#[local] Hint Resolve w_timeout_c w_any_of_c spawn_c e_reserve_put_c e_reserve_get_c e_get_c : cdb.

Lemma step_c kd pc0 p n w w' : step kd pc0 p n w w' -> CN w -> CN w'.
Proof.
  destruct 1; intros HC; auto 6 with cdb.
  1: { eapply logw_c; [eapply neutral_not_counted; eassumption|exact HC]. }
  1, 2: (apply upd_node_keep; [apply keep_frame; assumption|exact HC]).
  all: eauto 6 with cdb.
Qed.
Lemma discard_c n w1 w t i : CN w1 -> nblocking (get_node w1 n) = false -> CN w -> t = wnow w -> CN (discard w n t i).
Proof. intros _ _ H _. apply disc_pair, H. Qed.

Lemma sub_c kd pc0 p n w w' : (reach kd pc0 p n w w -> reach kd pc0 p n w w') -> CN w -> CN w'.
Proof. apply (sub_lift CN step_c discard_c). Qed.

Lemma source_loop_c w p n : CN w -> CN (fst (source_loop w p n)).
Proof. apply (sub_c KSourceB 0 p n), source_loop_r. Qed.
Lemma sink_loop_c w p n : CN w -> CN (fst (sink_loop w p n)).
Proof. apply (sub_c KSinkB 0 p n), sink_loop_r. Qed.
Lemma machine_request_c w p n : CN w -> CN (fst (machine_request w p n)).
Proof. apply (sub_c KMachineB 0 p n), machine_request_r. Qed.
Lemma machine_start_worker_c w p n i : CN w -> CN (fst (machine_start_worker w p n i)).
Proof. apply (sub_c KMachineB 0 p n), machine_start_worker_r. Qed.
Lemma worker_release_c w p n : CN w -> CN (fst (worker_release w p n)).
Proof. apply (sub_c KWorker 0 p n), worker_release_r. Qed.
Lemma check_state_c w n : CN w -> CN (check_state w n).
Proof. apply (sub_c KSplitWorker 0 0 n), check_state_r. exact I. Qed.
Lemma sc_request_c w p n pc : CN w -> CN (fst (sc_request w p n pc)).
Proof. apply (sub_c KSplitWorker 0 p n), sc_request_r. auto. Qed.
Lemma sc_release_c w p n : CN w -> CN (fst (sc_release w p n)).
Proof. apply (sub_c KSplitWorker 0 p n), sc_release_r. left; reflexivity. Qed.
Lemma sc_dispatch_c w p n c ph : CN w -> CN (fst (sc_dispatch w p n c ph)).
Proof. apply (sub_c KSplitWorker 0 p n), sc_dispatch_r. left; reflexivity. Qed.
Lemma sc_next_c w p n : CN w -> CN (fst (sc_next w p n)).
Proof. apply (sub_c KSplitWorker 0 p n), sc_next_r. left; reflexivity. Qed.
Lemma sc_worker_cont_c w p n : CN w -> CN (fst (sc_worker_cont w p n)).
Proof. apply (sub_c KSplitWorker 0 p n), sc_worker_cont_r. left; reflexivity. Qed.
Lemma splitter_head_c w p n : CN w -> CN (fst (splitter_head w p n)).
Proof. apply (sub_c KSplitterB 0 p n), splitter_head_r. Qed.
Lemma splitter_start_c w p n pal : CN w -> CN (fst (splitter_start w p n pal)).
Proof. apply (sub_c KSplitterB 0 p n), splitter_start_r. Qed.
Lemma combiner_head_c w p n : CN w -> CN (fst (combiner_head w p n)).
Proof. apply (sub_c KCombinerB 0 p n), combiner_head_r. Qed.
Lemma combiner_loop_c w p n : CN w -> CN (fst (combiner_loop w p n)).
Proof. apply (sub_c KCombinerB 0 p n), combiner_loop_r. Qed.

Lemma run_cbs_c l : forall w, CN w -> CN (fold_left run_cb l w).
Proof.
  apply (run_cbs_lift CN step_c discard_c); auto with cdb;
    intros w n k r E H; (apply (upd_node_keep (w <| wk := k |>)); [intros ?; repeat split; reflexivity|exact H]).
Qed.

Theorem fstep_c w w' : CN w -> fstep w = Some w' -> CN w'.
Proof. apply (FactoryInv.fstep_lift CN); auto using run_cbs_c. Qed.

Lemma mk_world_c nodes edges order :
  (forall nd, In nd nodes -> ngen nd = 0%nat /\ ndisc nd = 0%nat /\ nrecv nd = 0%nat) -> CN (mk_world nodes edges order).
Proof.
  intros H0. apply (FactoryInv.mk_steps_lift CN); eauto using spawn_c, w_event_c, upd_edge_c.
  intros n L. simpl in *. unfold COK, cnt. simpl. apply H0. unfold get_node. simpl. apply nth_In. exact L.
Qed.

(* C18 (counters), for every factory configuration whose nodes start with zero counters, and every number
   of kernel steps: a node's counters of generated, discarded and received items are the numbers of
   generation, discard and reception events of that node in the trace *)
Theorem counters_are_event_counts nodes edges order n :
  (forall nd, In nd nodes -> ngen nd = 0%nat /\ ndisc nd = 0%nat /\ nrecv nd = 0%nat) ->
  let w := FactoryInv.iter_fstep n (mk_world nodes edges order) in
  forall i, (i < length (wnodes w))%nat ->
    ngen (get_node w i) = cnt (is_gen i) (wlog w) /\
    ndisc (get_node w i) = cnt (is_disc i) (wlog w) /\
    nrecv (get_node w i) = cnt (is_recv i) (wlog w).
Proof.
  intros H0 w i L.
  exact (FactoryInv.iter_fstep_lift CN (fun w k _ _ _ H => H) run_cbs_c n _ (mk_world_c nodes edges order H0) i L).
Qed.
