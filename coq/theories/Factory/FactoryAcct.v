(* Whole-factory invariant for C17 (state-time accounting): once a node has taken its first time stamp, the
   per-state totals keep pace with the stamp exactly -- at every later world of every run
       sum of the totals  -  last stamp   is the same constant,
   for a machine in each of its two documented state groups (SETUP + IDLE + ALL_ACTIVE_BLOCKED + ATLEAST_ONE_PROCESSING
   and SETUP + IDLE + ALL_ACTIVE_PROCESSING + ATLEAST_ONE_BLOCKED), and every total stays non-negative.  Every advance
   of the stamp is therefore charged to exactly one state (one state of each group), and finalisation at T, which
   charges T - stamp once more, makes the totals add up to T minus the time of the first stamp.
   The predicate fixes one node n0 of kind k0 and also says which processes may touch its accounts: a process owned
   by n0 has a kind that fits k0, and the behaviour process of a machine / splitter / combiner is past the program
   points that initialise the accounts.  The operation lemmas are stated for "the running process p0, of kind kd0,
   owned by node ow0"; [mode] collects the side conditions they need and [step_c] shows that the premises Steps.v
   attaches to each operation provide them. *)
From Coq Require Import List ZArith Lia Bool Arith.
From RecordUpdate Require Import RecordUpdate.
From FV Require Import Kernel Accounting World Factory Steps.
From FV Require FactoryInv FactoryStamp.
From FV Require StoreB.
Import ListNotations.
Open Scope Z_scope.

(* which accounting routine the processes of a kind call on their node *)
Definition compat (kd : pkind) (k : nkind) : Prop :=
  match kd with
  | KMachineB | KWorker => k = NMachine
  | KSourceB | KSinkB | KSplitterB | KSplitWorker | KCombinerB | KCombWorker => k <> NMachine
  | _ => True
  end.
Definition pcok (kd : pkind) (pc : nat) : Prop :=
  match kd with KMachineB => (2 <= pc)%nat | KSplitterB | KCombinerB => (1 <= pc)%nat | _ => True end.

Definition gA (ts : list Z) : Z := nth 0 ts 0 + nth 1 ts 0 + nth 3 ts 0 + nth 2 ts 0.
Definition gB (ts : list Z) : Z := nth 0 ts 0 + nth 1 ts 0 + nth 4 ts 0 + nth 5 ts 0.
Definition nonneg (ts : list Z) : Prop := Forall (fun x => 0 <= x) ts.

(* the five conditional additions of Machine.update_state_rep *)
Definition rep_add (p b el : Z) (ts : list Z) : list Z :=
  let add (k : nat) (c : bool) (ts : list Z) := if c then upd k (fun v => v + el) ts else ts in
  add 5%nat (c_oneblk p b) (add 4%nat (c_allproc p b) (add 2%nat (c_oneproc p b) (add 3%nat (c_allblk p b) (add 1%nat (c_idle p b) ts)))).

Arguments rep_add : simpl never.

Lemma update_state_rep_eq w n l p b :
  nlast (get_node w n) = Some l -> nsrep (get_node w n) = (p, b) ->
  update_state_rep w n =
  let '(np, nb) := count_threads (get_node w n) in
  let w1 := upd_node w n (fun x => x <| ntstate := rep_add p b (wnow w - l) (ntstate (get_node w n)) |> <| nsrep := (np, nb) |>
                                     <| nlast := Some (wnow w) |>) in
  if (np + nb >? Z.of_nat (nwcap (get_node w n))) then crashw w1 (CAssert 40) else w1.
Proof. intros E1 E2. unfold update_state_rep. rewrite E1, E2. reflexivity. Qed.

Lemma rep_add_eq p b el a0 a1 a2 a3 a4 a5 r :
  rep_add p b el (a0 :: a1 :: a2 :: a3 :: a4 :: a5 :: r) =
  a0 :: (if c_idle p b then a1 + el else a1) :: (if c_oneproc p b then a2 + el else a2) ::
  (if c_allblk p b then a3 + el else a3) :: (if c_allproc p b then a4 + el else a4) ::
  (if c_oneblk p b then a5 + el else a5) :: r.
Proof.
  unfold rep_add. generalize (c_idle p b), (c_allblk p b), (c_oneproc p b), (c_allproc p b), (c_oneblk p b).
  intros [] [] [] [] []; reflexivity.
Qed.

Lemma rep_add_groups p b el ts : 0 <= p -> 0 <= b -> (6 <= length ts)%nat ->
  gA (rep_add p b el ts) = gA ts + el /\ gB (rep_add p b el ts) = gB ts + el /\ length (rep_add p b el ts) = length ts /\
  (0 <= el -> nonneg ts -> nonneg (rep_add p b el ts)).
Proof.
  intros Hp Hb L.
  destruct ts as [|a0 [|a1 [|a2 [|a3 [|a4 [|a5 r]]]]]]; simpl in L; try lia.
  rewrite rep_add_eq. unfold gA, gB, nonneg. cbn [nth length].
  pose proof (add_group _ _ _ a1 a3 a2 el (groupA_partition p b Hp Hb)) as GA.
  pose proof (add_group _ _ _ a1 a4 a5 el (groupB_partition p b Hp Hb)) as GB.
  repeat split; try lia.
  intros Hel HF. repeat match goal with H : Forall _ (_ :: _) |- _ => inversion H; clear H; subst end.
  repeat (constructor; [first [assumption | apply add_nonneg; assumption]|]). assumption.
Qed.

Section AtTime.
Variables (T : Z) (n0 : nat) (k0 : nkind) (cA cB : Z).

(* the accounts of node n0 *)
Definition AN (nd : node) : Prop :=
  nk nd = k0 /\ (6 <= length (ntstate nd))%nat /\ (nstate nd < 6)%nat /\ nonneg (ntstate nd) /\
  exists l, nlast nd = Some l /\ l <= T /\
    match k0 with
    | NMachine => gA (ntstate nd) = l + cA /\ gB (ntstate nd) = l + cB /\ 0 <= fst (nsrep nd) /\ 0 <= snd (nsrep nd)
    | _ => sumz (ntstate nd) = l + cA
    end.
Definition Acct (w : world) : Prop := (n0 < length (wnodes w))%nat /\ AN (get_node w n0).
(* the processes owned by n0 *)
Definition PrOK (w : world) : Prop :=
  forall p, (p < length (wprocs w))%nat -> pown (get_proc w p) = n0 ->
    compat (pkd (get_proc w p)) k0 /\ pcok (pkd (get_proc w p)) (ppc (get_proc w p)).
Definition PW (w : world) : Prop := wnow w = T /\ Acct w /\ PrOK w.

Lemma pw_same w w' : wnow w' = wnow w -> wnodes w' = wnodes w -> wprocs w' = wprocs w -> PW w -> PW w'.
Proof. unfold PW, Acct, PrOK, get_node, get_proc. intros -> -> ->. auto. Qed.
Lemma pw_crashw w c : PW w -> PW (crashw w c).
Proof. unfold crashw. destruct (wcrash w); auto. Qed.
Lemma pw_upd_node w n f : (n = n0 -> AN (get_node w n0) -> AN (f (get_node w n0))) -> PW w -> PW (upd_node w n f).
Proof.
  intros K (N & (L & A) & P). split; [exact N|]. split; [|exact P].
  unfold Acct, get_node, upd_node in *. cbn [wnodes set]. simpl. rewrite upd_length. split; [exact L|].
  destruct (Nat.eq_dec n n0) as [->|NE]; [rewrite nth_upd_same by exact L; auto|rewrite nth_upd_other by exact NE; exact A].
Qed.
Lemma pw_upd_node_keep w n f :
  (forall x, nk (f x) = nk x /\ ntstate (f x) = ntstate x /\ nstate (f x) = nstate x /\ nlast (f x) = nlast x /\ nsrep (f x) = nsrep x) ->
  PW w -> PW (upd_node w n f).
Proof.
  intros K. apply pw_upd_node. intros _. destruct (K (get_node w n0)) as (K1 & K2 & K3 & K4 & K5).
  unfold AN. rewrite K1, K2, K3, K4, K5. auto.
Qed.

Variables (p0 : nat) (kd0 : pkind) (ow0 : nat).
Definition QP (w : world) : Prop := (p0 < length (wprocs w))%nat /\ pkd (get_proc w p0) = kd0 /\ pown (get_proc w p0) = ow0.
Definition CN (w : world) : Prop := PW w /\ QP w.

Lemma pnow w : CN w -> wnow w = T.
Proof. intros ((A & _) & _). exact A. Qed.

Lemma same_c w w' : wnow w' = wnow w -> wnodes w' = wnodes w -> wprocs w' = wprocs w -> CN w -> CN w'.
Proof. unfold CN, PW, Acct, PrOK, QP, get_node, get_proc. intros -> -> ->. auto. Qed.
Lemma setk_c w k : now k = now (wk w) -> CN w -> CN (w <| wk := k |>).
Proof. intros E. apply same_c; auto. Qed.

(* QP reads the processes only: where they stay, CN follows from PW *)
Lemma cn_pw w w' : wprocs w' = wprocs w -> (PW w -> PW w') -> CN w -> CN w'.
Proof. unfold CN, QP, get_proc. intros -> K (H & Q). auto. Qed.

(* node updates *)
Lemma upd_node_other w n f : n <> n0 -> CN w -> CN (upd_node w n f).
Proof. intros NE. apply cn_pw; [reflexivity|]. apply pw_upd_node. intros E. contradiction. Qed.
Lemma upd_node_keep w n f :
  (forall x, nk (f x) = nk x /\ ntstate (f x) = ntstate x /\ nstate (f x) = nstate x /\ nlast (f x) = nlast x /\ nsrep (f x) = nsrep x) ->
  CN w -> CN (upd_node w n f).
Proof. intros K. apply cn_pw; [reflexivity|]. apply pw_upd_node_keep, K. Qed.
(* replacing the accounts of n0 by accounts that satisfy the predicate again *)
Lemma upd_node_acct w f : AN (f (get_node w n0)) -> CN w -> CN (upd_node w n0 f).
Proof. intros K. apply cn_pw; [reflexivity|]. apply pw_upd_node. auto. Qed.
Lemma get_node_upd_same w f : (n0 < length (wnodes w))%nat -> get_node (upd_node w n0 f) n0 = f (get_node w n0).
Proof. intros L. unfold get_node, upd_node. cbn [wnodes set]. simpl. apply nth_upd_same. exact L. Qed.

Lemma upd_node_acct2 w f g : AN (g (f (get_node w n0))) -> CN w -> CN (upd_node (upd_node w n0 f) n0 g).
Proof.
  intros K H. replace (upd_node (upd_node w n0 f) n0 g) with (upd_node w n0 (fun x => g (f x))).
  - apply upd_node_acct; assumption.
  - destruct w. cbv -[upd]. rewrite upd_upd. reflexivity.
Qed.

(* Node.update_state on a node that is not a machine *)
Lemma update_state_c w n st : (n <> n0 \/ k0 <> NMachine) -> (n <> n0 \/ (st < 6)%nat) -> CN w -> CN (update_state w n st).
Proof.
  intros M S H. unfold update_state.
  destruct (Nat.eq_dec n n0) as [->|NE].
  2:{ destruct (nlast (get_node w n)); repeat apply upd_node_other; auto. }
  destruct M as [M|M]; [congruence|]. destruct S as [S|S]; [congruence|].
  pose proof H as ((N & (L & A) & P) & Q). destruct A as (A1 & A2 & A3 & A4 & l & A5 & A6 & A7).
  rewrite A5. rewrite N. apply upd_node_acct2; [|exact H].
  unfold AN. cbn. rewrite upd_length. split; [exact A1|]. split; [exact A2|]. split; [exact S|].
  split; [apply upd_nonneg; auto; lia|]. exists T. split; [reflexivity|]. split; [lia|].
  destruct k0; try congruence; rewrite sumz_upd by lia; lia.
Qed.
Lemma update_state_same_c w n : (n <> n0 \/ k0 <> NMachine) -> CN w -> CN (update_state w n (nstate (get_node w n))).
Proof.
  intros M H. apply update_state_c; auto. destruct (Nat.eq_dec n n0) as [->|NE]; [right|left; exact NE].
  destruct H as ((_ & (_ & A) & _) & _). destruct A as (_ & _ & A3 & _). exact A3.
Qed.

Lemma crashw_c w c : CN w -> CN (crashw w c).
Proof. unfold crashw. destruct (wcrash w); auto. Qed.

(* Machine.update_state_rep on a machine *)
Lemma update_state_rep_c w n : (n <> n0 \/ k0 = NMachine) -> CN w -> CN (update_state_rep w n).
Proof.
  intros M H.
  destruct (Nat.eq_dec n n0) as [->|NE].
  2:{ apply (update_state_rep_lift CN crashw_c); [|exact H]. intros w' f _. apply upd_node_other; auto. }
  destruct M as [M|M]; [congruence|].
  pose proof H as ((N & (L & A) & P) & Q). destruct A as (A1 & A2 & A3 & A4 & l & A5 & A6 & A7).
  destruct (nsrep (get_node w n0)) as [p b] eqn:ER. rewrite (update_state_rep_eq _ _ _ _ _ A5 ER). rewrite N.
  destruct (count_threads (get_node w n0)) as [np nb] eqn:EC.
  rewrite M in A7. destruct A7 as (GA & GB & Hp & Hb). simpl in Hp, Hb.
  destruct (rep_add_groups p b (T - l) (ntstate (get_node w n0)) Hp Hb A2) as (RA & RB & RL & RN).
  assert (0 <= np /\ 0 <= nb) as (Hnp & Hnb).
  { unfold count_threads in EC. inversion EC; subst. split; apply Zle_0_nat. }
  cbv zeta.
  match goal with |- CN (if _ then crashw ?x _ else _) => assert (CN x) as H1 end.
  { apply upd_node_acct; [|exact H]. unfold AN. cbn.
    rewrite RL. split; [exact A1|]. split; [exact A2|]. split; [exact A3|]. split; [apply RN; auto; lia|].
    exists T. split; [reflexivity|]. split; [lia|]. rewrite M. rewrite RA, RB. repeat split; lia. }
  destruct (_ >? _); [|exact H1]. unfold crashw. destruct (wcrash _); exact H1.
Qed.

(* process updates *)
Lemma get_proc_upd w p f q : get_proc (upd_proc w p f) q = if Nat.eqb p q && (q <? length (wprocs w))%nat then f (get_proc w q) else get_proc w q.
Proof.
  unfold get_proc, upd_proc. cbn [wprocs set]. simpl. destruct (Nat.eqb_spec p q) as [->|NE]; simpl.
  - destruct (Nat.ltb_spec q (length (wprocs w))).
    + apply nth_upd_same. assumption.
    + rewrite !nth_overflow; auto. rewrite upd_length. assumption.
  - apply nth_upd_other. exact NE.
Qed.
Lemma upd_proc_gen w p f :
  (forall x, pkd (f x) = pkd x /\ pown (f x) = pown x) ->
  ((p < length (wprocs w))%nat -> pown (get_proc w p) = n0 -> pcok (pkd (get_proc w p)) (ppc (f (get_proc w p)))) ->
  CN w -> CN (upd_proc w p f).
Proof.
  intros K C ((N & A & P) & (Q1 & Q2 & Q3)). split; [split; [exact N|split; [exact A|]]|].
  - intros q Lq. rewrite get_proc_upd. unfold upd_proc in Lq. cbn [wprocs set] in Lq. simpl in Lq. rewrite upd_length in Lq.
    destruct (Nat.eqb_spec p q) as [->|NE]; simpl; [|apply P; exact Lq].
    destruct (Nat.ltb_spec q (length (wprocs w))); [|apply P; exact Lq].
    destruct (K (get_proc w q)) as (K1 & K2). rewrite K1, K2. intros O. split; [apply P; auto|apply C; auto].
  - unfold QP. rewrite get_proc_upd. unfold upd_proc. cbn [wprocs set]. simpl. rewrite upd_length. split; [exact Q1|].
    destruct (Nat.eqb p p0 && (p0 <? length (wprocs w))%nat); auto. destruct (K (get_proc w p0)) as (K1 & K2). rewrite K1, K2. auto.
Qed.
Lemma upd_proc_keep w p f :
  (forall x, pkd (f x) = pkd x /\ pown (f x) = pown x /\ ppc (f x) = ppc x) -> CN w -> CN (upd_proc w p f).
Proof.
  intros K H. apply upd_proc_gen; auto.
  - intros x. destruct (K x) as (A & B & _). auto.
  - intros L O. destruct (K (get_proc w p)) as (_ & _ & C). rewrite C. destruct H as ((_ & _ & P) & _). apply P; auto.
Qed.
Lemma setpc_c w pc : (ow0 = n0 -> pcok kd0 pc) -> CN w -> CN (setpc w p0 pc).
Proof.
  intros C H. unfold setpc. apply upd_proc_gen; auto.
  intros L O. cbn. destruct H as (_ & (_ & Q2 & Q3)). rewrite Q2. apply C. congruence.
Qed.

Create HintDb cdb.

Lemma logw_c w x : CN w -> CN (logw w x).
Proof. auto. Qed.
Lemma upd_edge_c w e f : CN w -> CN (upd_edge w e f).
Proof. auto. Qed.
Lemma upd_item_c w e f : CN w -> CN (upd_item w e f).
Proof. auto. Qed.
#[local] Hint Resolve crashw_c logw_c upd_edge_c upd_item_c : cdb.
Ltac cn_side :=
  let x := fresh in intros x;
  first [repeat split; reflexivity
        | repeat (match goal with
                  | |- context [if ?b then _ else _] => destruct b
                  | |- context [match ?b with _ => _ end] => destruct b
                  end); repeat split; reflexivity].
(* side conditions "the node is not n0, or ..." come from the hypotheses of the lemma at hand *)
Ltac mode_side := first [assumption | left; assumption | right; assumption | left; congruence | right; congruence
                   | right; unfold ST_SETUP, ST_GEN, ST_BLOCKED; lia].
#[local] Hint Extern 3 (CN (upd_node _ _ _)) => first [apply upd_node_keep; [cn_side|] | apply upd_node_other; [assumption|]] : cdb.
#[local] Hint Extern 3 (CN (upd_proc _ _ _)) => (apply upd_proc_keep; [cn_side|]) : cdb.
#[local] Hint Extern 2 (CN (update_state ?w ?n (nstate (get_node ?w ?n)))) => (apply update_state_same_c; [mode_side|]) : cdb.
#[local] Hint Extern 3 (CN (update_state _ _ _)) => (apply update_state_c; [mode_side|mode_side|]) : cdb.
#[local] Hint Extern 3 (CN (update_state_rep _ _)) => (apply update_state_rep_c; [mode_side|]) : cdb.
#[local] Hint Extern 4 (CN (set witems _ _)) => (eapply same_c; [| | |]; [reflexivity|reflexivity|reflexivity|]) : cdb.

Lemma w_succeed_c w e s : CN w -> CN (w_succeed w e s).
Proof.
  unfold w_succeed. intros H. destruct (succeed (wk w) e) eqn:E; [|apply crashw_c; auto].
  apply setk_c; auto. eapply FactoryStamp.now_succeed; eauto.
Qed.
#[local] Hint Resolve w_succeed_c : cdb.

Lemma w_succeed_all_c es : forall w, CN w -> CN (w_succeed_all w es).
Proof. apply succeed_all_lift; eauto using crashw_c, w_succeed_c. Qed.
#[local] Hint Resolve w_succeed_all_c : cdb.

Lemma w_event_c w w1 e : w_event w = (w1, e) -> CN w -> CN w1.
Proof. unfold w_event. simpl. intros [= <- _] H. apply setk_c; auto. Qed.

Lemma w_timeout_c w d w1 e : w_timeout w d = (w1, e) -> CN w -> CN w1.
Proof.
  unfold w_timeout. destruct (d <? 0).
  - intros [= <- _] H. auto with cdb.
  - destruct (timeout (wk w) d) as [k e0] eqn:E. intros [= <- _] H. apply setk_c; auto.
    apply (f_equal fst) in E. simpl in E. subst k. reflexivity.
Qed.

Lemma w_any_of_c w es w1 c : w_any_of w es = (w1, c) -> CN w -> CN w1.
Proof.
  unfold w_any_of. destruct (any_of (wk w) es) as [k e0] eqn:E. intros [= <- _] H. apply setk_c; auto.
  apply (f_equal fst) in E. simpl in E. subst k. apply FactoryStamp.now_any_of.
Qed.

(* env.process(...): the new process must fit the node it is owned by *)
Lemma spawn_c w pr w1 pid d :
  spawn w pr = (w1, pid, d) -> (pown pr = n0 -> compat (pkd pr) k0 /\ pcok (pkd pr) (ppc pr)) -> CN w -> CN w1.
Proof.
  unfold spawn. intros E C H.
  destruct (w_event w) as [wa done] eqn:E1. destruct (w_event wa) as [wb ini] eqn:E2.
  inversion E; subst. clear E.
  assert (CN wb) as Hb by (eapply w_event_c; [exact E2|]; eapply w_event_c; [exact E1|]; exact H).
  destruct Hb as ((N & A & P) & (Q1 & Q2 & Q3)).
  match goal with |- CN ?x => set (wz := x) end.
  assert (G : forall q, (q < length (wprocs wb))%nat -> get_proc wz q = get_proc wb q).
  { intros q Lq. subst wz. unfold get_proc. cbn [wprocs set]. simpl. apply app_nth1. exact Lq. }
  assert (GL : length (wprocs wz) = S (length (wprocs wb))).
  { subst wz. cbn [wprocs set]. simpl. rewrite app_length. simpl. lia. }
  assert (GN : pkd (get_proc wz (length (wprocs wb))) = pkd pr /\ pown (get_proc wz (length (wprocs wb))) = pown pr /\
               ppc (get_proc wz (length (wprocs wb))) = ppc pr).
  { subst wz. unfold get_proc. cbn [wprocs set]. simpl. rewrite app_nth2 by lia. rewrite Nat.sub_diag. simpl. auto. }
  assert (GA : wnow wz = wnow wb /\ wnodes wz = wnodes wb) by (subst wz; split; reflexivity).
  clearbody wz. destruct GA as (GA1 & GA2). destruct GN as (GN1 & GN2 & GN3).
  split; [split; [rewrite GA1; exact N|split]|].
  - unfold Acct, get_node in *. rewrite GA2. exact A.
  - intros q Lq. rewrite GL in Lq.
    destruct (Nat.eq_dec q (length (wprocs wb))) as [->|NE].
    + rewrite GN1, GN2, GN3. exact C.
    + rewrite G by lia. apply P. lia.
  - unfold QP. rewrite G by exact Q1. rewrite GL. split; [lia|]. auto.
Qed.

Lemma e_update_level_c w e : CN w -> CN (e_update_level w e).
Proof. auto. Qed.
#[local] Hint Resolve e_update_level_c : cdb.
Lemma store_op_c w e o w1 r ts : store_op w e o = (w1, r, ts) -> CN w -> CN w1.
Proof. unfold store_op. destruct (StoreB.step _ _) as [[s' r0] ts0]. intros [= <- _ _] H. auto. Qed.
#[local] Hint Resolve w_event_c store_op_c : cdb.

Lemma out_err_c w r s : CN w -> CN (out_err w r s).
Proof. apply out_err_lift; eauto using crashw_c. Qed.
#[local] Hint Resolve out_err_c : cdb.

Lemma e_reserve_put_c w e p w1 t : e_reserve_put w e p = (w1, t) -> CN w -> CN w1.
Proof. eapply reserve_put_lift with (okop := fun _ => True); eauto with cdb. Qed.

Lemma e_reserve_get_c w e p w1 t : e_reserve_get w e p = (w1, t) -> CN w -> CN w1.
Proof. eapply reserve_get_lift with (okop := fun _ => True); eauto with cdb. Qed.

Lemma e_cancel_put_c w e t : CN w -> CN (e_cancel_put w e t).
Proof. eapply cancel_put_lift with (okop := fun _ => True); eauto with cdb. Qed.
Lemma e_cancel_get_c w e t : CN w -> CN (e_cancel_get w e t).
Proof. eapply cancel_get_lift with (okop := fun _ => True); eauto with cdb. Qed.
#[local] Hint Resolve e_cancel_put_c e_cancel_get_c : cdb.

Lemma fleet_after_put_c w e : CN w -> CN (fleet_after_put w e).
Proof. apply fleet_after_put_lift; eauto using crashw_c, w_succeed_c. Qed.
#[local] Hint Resolve fleet_after_put_c : cdb.

Lemma e_put_c w e p t i : CN w -> CN (e_put w e p t i).
Proof. apply (put_lift CN crashw_c w_succeed_c upd_edge_c); [intros * E; eapply spawn_c; [exact E|cbn; intros _; split; exact I]|intros w0 x _; apply logw_c]. Qed.
#[local] Hint Resolve e_put_c : cdb.

Lemma e_get_c w e p t n w1 r : e_get w e p t n = (w1, r) -> CN w -> CN w1.
Proof. apply (get_lift CN crashw_c w_succeed_c upd_edge_c). intros w0 x _. apply logw_c. Qed.

Lemma cancel_others_cc w es ts keep put : CN w -> CN (cancel_others w es ts keep put).
Proof. apply cancel_others_lift; eauto using e_cancel_put_c, e_cancel_get_c. Qed.
#[local] Hint Resolve cancel_others_cc : cdb.

Lemma set_creation_c w i n : CN w -> CN (set_creation w i n).
Proof. intros H. unfold set_creation. auto with cdb. Qed.
Lemma occupancy_c w n a : CN w -> CN (occupancy w n a).
Proof. intros H. unfold occupancy. auto 8 with cdb. Qed.
Lemma set_thread_c w n p b : CN w -> CN (set_thread w n p b).
Proof. intros H. unfold set_thread. auto 8 with cdb. Qed.
Lemma add_blocked_time_c w p n : CN w -> CN (add_blocked_time w p n).
Proof. intros H. unfold add_blocked_time. auto 8 with cdb. Qed.
#[local] Hint Resolve set_creation_c occupancy_c set_thread_c add_blocked_time_c : cdb.

Notation NodeMode := (ow0 <> n0 \/ k0 <> NMachine).
Notation MachMode := (ow0 <> n0 \/ k0 = NMachine).
Notation freepc := (forall pc : nat, pcok kd0 pc).

Lemma worker_release_c w : freepc -> CN w -> CN (fst (worker_release w p0 ow0)).
Proof.
  intros F H. unfold worker_release. cbv zeta.
  destruct (res_release (wk w) ow0 (nres (get_node w ow0)) (ptk (me w p0))) as [[[k r] g]|] eqn:E; cbn [fst].
  - apply setpc_c; [intros _; apply F|]. apply upd_node_keep; [cn_side|]. apply setk_c; [|exact H]. eapply FactoryStamp.now_res_release; eauto.
  - auto with cdb.
Qed.
Lemma check_state_c w n : (n <> n0 \/ k0 <> NMachine) -> CN w -> CN (check_state w n).
Proof.
  intros M H. unfold check_state. destruct (count_threads _).
  repeat match goal with |- context [if ?b then _ else _] => destruct b end; auto with cdb.
Qed.
Lemma sc_request_c w n pc : (ow0 = n0 -> pcok kd0 pc) -> CN w -> CN (fst (sc_request w p0 n pc)).
Proof.
  intros C H. unfold sc_request.
  destruct (res_request (wk w) n (nres (get_node w n))) as [[[k r] q]|] eqn:E; cbn [fst].
  - apply setpc_c; [exact C|]. apply upd_proc_keep; [cn_side|]. apply upd_node_keep; [cn_side|]. apply setk_c; [|exact H].
    eapply FactoryStamp.now_res_request; eauto.
  - auto with cdb.
Qed.
Lemma sc_release_c w n : freepc -> CN w -> CN (fst (sc_release w p0 n)).
Proof.
  intros F H. unfold sc_release.
  destruct (res_release (wk w) n (nres (get_node w n)) (ptk (me w p0))) as [[[k r] g]|] eqn:E; cbn [fst].
  - apply setpc_c; [intros _; apply F|]. apply upd_node_keep; [cn_side|]. apply setk_c; [|exact H]. eapply FactoryStamp.now_res_release; eauto.
  - auto with cdb.
Qed.

(* the program points of a behaviour process that initialise the accounts are behind the process owned by n0 *)
Lemma pc_fact w : CN w -> ow0 = n0 -> pcok kd0 (ppc (get_proc w p0)).
Proof. intros ((_ & _ & P) & (Q1 & Q2 & Q3)) E. rewrite <- Q2. apply P; [exact Q1|congruence]. Qed.

(* What the running process may do to the accounts of n0 while it runs a block of kind [kd] on node [n]
   that it entered at program counter [pc0]: the side conditions of the operations, by the premises
   [step] gives them. *)
Record mode (kd : pkind) (pc0 n : nat) : Prop := {
  m_pc : forall pc, (past_init kd pc0 -> past_init kd pc) -> ow0 = n0 -> pcok kd0 pc;
  m_node : node_kind kd -> n <> n0 \/ k0 <> NMachine;
  m_mach : machine_kind kd -> n <> n0 \/ k0 = NMachine;
  m_init : ~ past_init kd pc0 -> n <> n0;
  m_spawn : forall pr, spawn_ok kd n pr -> pown pr = n0 -> compat (pkd pr) k0 /\ pcok (pkd pr) (ppc pr) }.

#[local] Hint Resolve w_timeout_c w_any_of_c e_reserve_put_c e_reserve_get_c e_get_c : cdb.

Lemma step_c kd pc0 n : mode kd pc0 n -> forall w w', step kd pc0 p0 n w w' -> CN w -> CN w'.
Proof.
  intros M w w'. destruct 1; intros HC; auto 7 with cdb.
  1: { apply upd_proc_keep; [intros x; split; [apply pf_pkd|split; [apply pf_pown|apply pf_ppc]]; assumption|exact HC]. }
  1: { apply setpc_c; [apply (m_pc _ _ _ M); assumption|exact HC]. }
  1: { apply upd_node_keep; [|exact HC].
     intros x. repeat split; [apply nf_nk|apply af_ntstate|apply af_nstate|apply af_nlast|apply af_nsrep]; assumption. }
  1: { apply upd_node_other; [apply (m_init _ _ _ M); assumption|exact HC]. }
  1: { destruct H0 as [L| ->]; [apply update_state_c; auto using (m_node _ _ _ M)|apply update_state_same_c; auto using (m_node _ _ _ M)]. }
  1: { apply update_state_rep_c; [apply (m_mach _ _ _ M); assumption|exact HC]. }
  1: { apply upd_node_keep; [cn_side|]. apply setk_c; [eapply FactoryStamp.now_res_request; eassumption|exact HC]. }
  1: { apply upd_node_keep; [cn_side|]. apply setk_c; [eapply FactoryStamp.now_res_release; eassumption|exact HC]. }
  (* S_spawn, the fourth of the operations that hand back the new world in an equation *)
  4: { eapply spawn_c; [eassumption|apply (m_spawn _ _ _ M); assumption|exact HC]. }
  all: eauto 7 with cdb.
Qed.
Lemma discard_c n w1 w t i : CN w1 -> nblocking (get_node w1 n) = false -> CN w -> t = wnow w -> CN (discard w n t i).
Proof. intros _ _ H _. unfold discard. auto with cdb. Qed.

Lemma mode_cn w : CN w -> mode kd0 (ppc (get_proc w p0)) ow0.
Proof.
  intros H. pose proof (pc_fact w H) as PF. pose proof H as ((_ & _ & P) & (Q1 & Q2 & Q3)).
  assert (CM : ow0 = n0 -> compat kd0 k0) by (intros E; rewrite <- Q2; apply P; [exact Q1|congruence]).
  assert (D : ow0 = n0 \/ ow0 <> n0) by (destruct (Nat.eq_dec ow0 n0); auto).
  constructor.
  - intros pc K E. apply K, PF, E.
  - intros K. destruct D as [E|E]; [right|left; exact E]. specialize (CM E). destruct kd0; try contradiction; exact CM.
  - intros K. destruct D as [E|E]; [right|left; exact E]. specialize (CM E). destruct K as [-> | ->]; exact CM.
  - intros K E. apply K, PF, E.
  - intros pr (Z & K) E. rewrite Z. destruct (pkd pr); try contradiction; try (split; exact I).
    all: destruct K as (K1 & K2); rewrite K2 in E; specialize (CM E); rewrite K1 in CM; split; [exact CM|exact I].
Qed.
Lemma mode_plain kd pc0 n :
  freepc -> (forall pc, past_init kd pc) -> kd <> KMachineB -> kd <> KSplitterB -> kd <> KCombinerB ->
  (node_kind kd -> n <> n0 \/ k0 <> NMachine) -> (machine_kind kd -> n <> n0 \/ k0 = NMachine) -> mode kd pc0 n.
Proof.
  intros F PI N1 N2 N3 MN MM. constructor; auto.
  intros pr (Z & K) E. rewrite Z. destruct (pkd pr); try contradiction; try (split; exact I); destruct K; contradiction.
Qed.

Lemma sub_c kd pc0 n w w' : mode kd pc0 n -> (reach kd pc0 p0 n w w -> reach kd pc0 p0 n w w') -> CN w -> CN w'.
Proof. intros M R. exact (reach_lift _ _ _ _ CN (step_c _ _ _ M) (discard_c _) _ _ (R (reach_refl _ _ _ _ _))). Qed.
Ltac plain F M := apply mode_plain; [exact F|intros ?; exact I|discriminate|discriminate|discriminate|intros _; exact M
                                    |intros [K|K]; discriminate K].

Lemma source_loop_c w : freepc -> NodeMode -> CN w -> CN (fst (source_loop w p0 ow0)).
Proof. intros F M. apply (sub_c KSourceB 0 ow0); [plain F M|apply source_loop_r]. Qed.
Lemma sink_loop_c w : freepc -> NodeMode -> CN w -> CN (fst (sink_loop w p0 ow0)).
Proof. intros F M. apply (sub_c KSinkB 0 ow0); [plain F M|apply sink_loop_r]. Qed.
Lemma sc_dispatch_c w c ph : freepc -> NodeMode -> CN w -> CN (fst (sc_dispatch w p0 ow0 c ph)).
Proof. intros F M. apply (sub_c KSplitWorker 0 ow0); [plain F M|apply sc_dispatch_r; left; reflexivity]. Qed.
Lemma sc_next_c w : freepc -> NodeMode -> CN w -> CN (fst (sc_next w p0 ow0)).
Proof. intros F M. apply (sub_c KSplitWorker 0 ow0); [plain F M|apply sc_next_r; left; reflexivity]. Qed.
Lemma sc_worker_cont_c w : freepc -> NodeMode -> CN w -> CN (fst (sc_worker_cont w p0 ow0)).
Proof. intros F M. apply (sub_c KSplitWorker 0 ow0); [plain F M|apply sc_worker_cont_r; left; reflexivity]. Qed.

Lemma machine_request_c w : kd0 = KMachineB -> MachMode -> CN w -> CN (fst (machine_request w p0 ow0)).
Proof. intros HK _ H. refine (sub_c _ _ _ _ _ (mode_cn w H) _ H). rewrite HK. apply machine_request_r. Qed.
Lemma machine_start_worker_c w i : kd0 = KMachineB -> MachMode -> CN w -> CN (fst (machine_start_worker w p0 ow0 i)).
Proof. intros HK _ H. refine (sub_c _ _ _ _ _ (mode_cn w H) _ H). rewrite HK. apply machine_start_worker_r. Qed.
Lemma splitter_head_c w : kd0 = KSplitterB -> NodeMode -> CN w -> CN (fst (splitter_head w p0 ow0)).
Proof. intros HK _ H. refine (sub_c _ _ _ _ _ (mode_cn w H) _ H). rewrite HK. apply splitter_head_r. Qed.
Lemma splitter_start_c w pal : kd0 = KSplitterB -> NodeMode -> CN w -> CN (fst (splitter_start w p0 ow0 pal)).
Proof. intros HK _ H. refine (sub_c _ _ _ _ _ (mode_cn w H) _ H). rewrite HK. apply splitter_start_r. Qed.
Lemma combiner_head_c w : kd0 = KCombinerB -> NodeMode -> CN w -> CN (fst (combiner_head w p0 ow0)).
Proof. intros HK _ H. refine (sub_c _ _ _ _ _ (mode_cn w H) _ H). rewrite HK. apply combiner_head_r. Qed.
Lemma combiner_loop_c w : kd0 = KCombinerB -> NodeMode -> CN w -> CN (fst (combiner_loop w p0 ow0)).
Proof. intros HK _ H. refine (sub_c _ _ _ _ _ (mode_cn w H) _ H). rewrite HK. apply combiner_loop_r. Qed.

Lemma block_c w : CN w -> CN (fst (block w p0)).
Proof.
  intros H. pose proof (mode_cn w H) as M. pose proof H as (_ & (_ & Q2 & Q3)). revert H.
  pose proof (block_reach w p0) as R. unfold me in R. rewrite Q2, Q3 in R.
  apply (reach_lift _ _ _ _ CN (step_c _ _ _ M) (discard_c _) _ _ R).
Qed.

Lemma resume_c f : forall w, CN w -> CN (resume f w p0).
Proof.
  induction f as [|f IH]; simpl; intros w H; auto with cdb.
  destruct (wcrash w); auto.
  pose proof (block_c (w <| wactive := p0 |>)) as B.
  destruct (block (w <| wactive := p0 |>) p0) as [w1 y]. cbn [fst] in B.
  assert (CN w1) as H1 by (apply B; revert H; apply same_c; reflexivity).
  destruct (wcrash w1); auto. destruct y.
  - destruct (e_proc _); [apply IH; exact H1|]. apply setk_c; [reflexivity|exact H1].
  - apply upd_proc_keep; [cn_side|]. apply setk_c; [reflexivity|exact H1].
Qed.

End AtTime.

(* ------------------------------------------------------------------ the kernel callbacks and one kernel step *)
Section Runs.
Variables (n0 : nat) (k0 : nkind) (cA cB : Z).

Lemma run_cb_p T w c : PW T n0 k0 cA cB w -> PW T n0 k0 cA cB (run_cb w c).
Proof.
  intros H. unfold run_cb. destruct (wcrash w); auto. destruct c.
  - destruct (Nat.ltb_spec p (length (wprocs w))) as [L|L]; [|apply pw_crashw; exact H].
    assert (CN T n0 k0 cA cB p (pkd (get_proc w p)) (pown (get_proc w p)) w) as C by (split; [exact H|repeat split; auto]).
    exact (proj1 (resume_c T n0 k0 cA cB p _ _ FUEL w C)).
  - revert H. apply pw_same; try reflexivity. unfold wnow. cbn [wk set]. simpl. apply FactoryStamp.now_check.
  - destruct (res_trig_get _ _) as [[k1 r1]|] eqn:E; [|apply pw_crashw; exact H].
    apply pw_upd_node_keep; [intros ?; repeat split; reflexivity|]. revert H. apply pw_same; try reflexivity.
    unfold wnow. cbn [wk set]. simpl. eapply FactoryStamp.now_res_trig_get; eauto.
  - destruct (res_trig_put _ _) as [[k1 r1]|] eqn:E; [|apply pw_crashw; exact H].
    apply pw_upd_node_keep; [intros ?; repeat split; reflexivity|]. revert H. apply pw_same; try reflexivity.
    unfold wnow. cbn [wk set]. simpl. eapply FactoryStamp.now_res_trig_put; eauto.
  - exact H.
Qed.

Lemma run_cbs_p T l : forall w, PW T n0 k0 cA cB w -> PW T n0 k0 cA cB (fold_left run_cb l w).
Proof. induction l as [|c l IH]; simpl; auto. intros w H. apply IH, run_cb_p, H. Qed.

(* the predicate at a later time: only "the stamp is not in the future" mentions the clock *)
Lemma pw_later T T' w k : T <= T' -> now k = T' -> PW T n0 k0 cA cB w -> PW T' n0 k0 cA cB (w <| wk := k |>).
Proof.
  intros LE NK (N & (L & A) & P). split; [exact NK|]. split; [|exact P]. split; [exact L|].
  destruct A as (A1 & A2 & A3 & A4 & l & A5 & A6 & A7). unfold AN.
  change (get_node (w <| wk := k |>) n0) with (get_node w n0).
  repeat split; auto. exists l. repeat split; auto. lia.
Qed.

Theorem fstep_p w w' : KInv (wk w) -> PW (wnow w) n0 k0 cA cB w -> fstep w = Some w' -> PW (wnow w') n0 k0 cA cB w'.
Proof.
  unfold fstep. intros KI H. destruct (wcrash w); [discriminate|].
  destruct (pop (wk w)) as [[[k e] cbs]|] eqn:E; [|discriminate]. intros [= <-].
  destruct (pop_kinv _ _ _ _ KI E) as (_ & M).
  pose proof (run_cbs_p (now k) cbs _ (pw_later _ _ w k M eq_refl H)) as R.
  pose proof (proj1 R) as RN. rewrite RN. exact R.
Qed.

(* C17: once node n0 has been stamped, its accounts keep pace with the stamp for the rest of the run *)
Theorem accounts_keep_pace w0 m :
  KInv (wk w0) -> PW (wnow w0) n0 k0 cA cB w0 ->
  let w := FactoryInv.iter_fstep m w0 in PW (wnow w) n0 k0 cA cB w.
Proof.
  revert w0. induction m as [|m IH]; simpl; intros w0 K H; auto. destruct (fstep w0) as [w'|] eqn:E; auto.
  apply IH; [exact (proj1 (FactoryInv.fstep_k _ _ K E))|eapply fstep_p; eauto].
Qed.

(* ... in particular between any two worlds of the run of any factory *)
Theorem accounts_keep_pace_in_every_factory nodes edges order j m :
  let wj := FactoryInv.iter_fstep j (mk_world nodes edges order) in
  PW (wnow wj) n0 k0 cA cB wj ->
  let w := FactoryInv.iter_fstep m wj in PW (wnow w) n0 k0 cA cB w.
Proof.
  intros wj H. apply accounts_keep_pace; [|exact H].
  exact (proj1 (FactoryInv.time_monotone nodes edges order j)).
Qed.

End Runs.

(* ------------------------------------------------------------------ what the predicate says after finalisation *)
(* the totals after Node / Machine.update_final_state_time(T') of a stamped node: the elapsed time is charged to the
   current state, on a machine as update_state_rep charges it *)
Lemma finalize_ntstate nd nd' T' l :
  nlast nd = Some l -> finalize_node T' nd = Some nd' ->
  ntstate nd' = match nk nd with
                | NMachine => rep_add (fst (nsrep nd)) (snd (nsrep nd)) (T' - l) (ntstate nd)
                | _ => upd (nstate nd) (fun v => v + (T' - l)) (ntstate nd)
                end.
Proof.
  (* only the totals of nd' are wanted; with nd a constructor the record updates compute away, on a variable every
     step would carry them *)
  intros E F. apply (f_equal (option_map ntstate)) in F. revert F. destruct nd as [k]. cbn in E. subst. unfold finalize_node. cbn.
  destruct k; try (destruct (negb _); [discriminate|]); try (intros [= <-]; reflexivity).
  match goal with |- context [let '(_, _) := ?x in _] => destruct x end. intros [= <-]. reflexivity.
Qed.

Theorem finalize_node_sum T k0 cA cB nd nd' T' :
  AN T k0 cA cB nd -> k0 <> NMachine -> finalize_node T' nd = Some nd' -> sumz (ntstate nd') = T' + cA.
Proof.
  intros (A1 & A2 & A3 & A4 & l & A5 & A6 & A7) NM F. rewrite (finalize_ntstate _ _ _ _ A5 F), A1.
  destruct k0; try congruence; rewrite sumz_upd by lia; lia.
Qed.

Theorem finalize_machine_groups T cA cB nd nd' T' :
  AN T NMachine cA cB nd -> finalize_node T' nd = Some nd' ->
  gA (ntstate nd') = T' + cA /\ gB (ntstate nd') = T' + cB.
Proof.
  intros (A1 & A2 & A3 & A4 & l & A5 & A6 & GA & GB & Hp & Hb) F. rewrite (finalize_ntstate _ _ _ _ A5 F), A1.
  destruct (rep_add_groups _ _ (T' - l) (ntstate nd) Hp Hb A2) as (RA & RB & _). rewrite RA, RB. lia.
Qed.

(* ------------------------------------------------------------------ a checker for the predicate, proved sound
   (used to exhibit worlds that satisfy it: the theorems above are not vacuous) *)
Definition nkind_eqb (a b : nkind) : bool :=
  match a, b with
  | NSource, NSource | NMachine, NMachine | NSink, NSink | NSplitter, NSplitter | NCombiner, NCombiner => true
  | _, _ => false
  end.
Lemma nkind_eqb_eq a b : nkind_eqb a b = true <-> a = b.
Proof. destruct a, b; simpl; split; intros; try reflexivity; try discriminate. Qed.

Definition compat_b (kd : pkind) (k : nkind) : bool :=
  match kd with
  | KMachineB | KWorker => nkind_eqb k NMachine
  | KSourceB | KSinkB | KSplitterB | KSplitWorker | KCombinerB | KCombWorker => negb (nkind_eqb k NMachine)
  | _ => true
  end.
Definition pcok_b (kd : pkind) (pc : nat) : bool :=
  match kd with KMachineB => (2 <=? pc)%nat | KSplitterB | KCombinerB => (1 <=? pc)%nat | _ => true end.

Definition an_check (T : Z) (k0 : nkind) (cA cB : Z) (nd : node) : bool :=
  nkind_eqb (nk nd) k0 && (6 <=? length (ntstate nd))%nat && (nstate nd <? 6)%nat && forallb (fun x => 0 <=? x) (ntstate nd) &&
  match nlast nd with
  | None => false
  | Some l =>
      (l <=? T) &&
      match k0 with
      | NMachine => (gA (ntstate nd) =? l + cA) && (gB (ntstate nd) =? l + cB) && (0 <=? fst (nsrep nd)) && (0 <=? snd (nsrep nd))
      | _ => sumz (ntstate nd) =? l + cA
      end
  end.
Definition pw_check (T : Z) (n0 : nat) (k0 : nkind) (cA cB : Z) (w : world) : bool :=
  (wnow w =? T) && (n0 <? length (wnodes w))%nat && an_check T k0 cA cB (get_node w n0) &&
  forallb (fun pr => negb (Nat.eqb (pown pr) n0) || (compat_b (pkd pr) k0 && pcok_b (pkd pr) (ppc pr))) (wprocs w).

Lemma an_check_sound T k0 cA cB nd : an_check T k0 cA cB nd = true -> AN T k0 cA cB nd.
Proof.
  unfold an_check, AN. intros H.
  apply andb_prop in H as (H & H5). apply andb_prop in H as (H & H4). apply andb_prop in H as (H & H3).
  apply andb_prop in H as (H1 & H2).
  apply nkind_eqb_eq in H1. apply Nat.leb_le in H2. apply Nat.ltb_lt in H3.
  split; [exact H1|]. split; [exact H2|]. split; [exact H3|].
  split. { unfold nonneg. rewrite Forall_forall. rewrite forallb_forall in H4. intros x Hx. apply Z.leb_le, H4, Hx. }
  destruct (nlast nd) as [l|]; [|discriminate]. exists l. split; [reflexivity|].
  apply andb_prop in H5 as (H5 & H6). apply Z.leb_le in H5. split; [exact H5|].
  destruct k0; try (apply Z.eqb_eq; exact H6).
  apply andb_prop in H6 as (H6 & H9). apply andb_prop in H6 as (H6 & H8). apply andb_prop in H6 as (H6 & H7).
  apply Z.eqb_eq in H6, H7. apply Z.leb_le in H8, H9. auto.
Qed.

Theorem pw_check_sound T n0 k0 cA cB w : pw_check T n0 k0 cA cB w = true -> PW T n0 k0 cA cB w.
Proof.
  unfold pw_check. intros H. apply andb_prop in H as (H & H4). apply andb_prop in H as (H & H3). apply andb_prop in H as (H1 & H2).
  apply Z.eqb_eq in H1. apply Nat.ltb_lt in H2. apply an_check_sound in H3.
  split; [exact H1|]. split; [split; [exact H2|exact H3]|].
  intros p Lp O. rewrite forallb_forall in H4. specialize (H4 (get_proc w p) (nth_In _ proc0 Lp)).
  rewrite O, Nat.eqb_refl in H4. simpl in H4. apply andb_prop in H4 as (C & Q). split.
  - unfold compat, compat_b in *. destruct (pkd (get_proc w p)); auto.
    all: first [apply nkind_eqb_eq; exact C
               | (intros EQ; apply nkind_eqb_eq in EQ; rewrite EQ in C; discriminate)].
  - unfold pcok, pcok_b in *. destruct (pkd (get_proc w p)); auto; apply Nat.leb_le; exact Q.
Qed.
