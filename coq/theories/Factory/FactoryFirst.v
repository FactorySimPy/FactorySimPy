(* C15 -- FIRST_AVAILABLE picks the lowest index: the two selection functions every node process of the
   model uses ([first_can_put] for the non-blocking output side, [first_triggered] for the blocking sides)
   return the first position whose test succeeds, and None exactly when none does. *)
From Coq Require Import List Lia.
From FV Require Import Kernel World Factory.
Import ListNotations.

Theorem first_can_put_spec w es :
  match first_can_put w es with
  | Some e => exists a b, es = a ++ e :: b /\ e_can_put w e = true /\ (forall x, In x a -> e_can_put w x = false)
  | None => forall x, In x es -> e_can_put w x = false
  end.
Proof.
  unfold first_can_put. induction es as [|e r IH]; simpl.
  - intros x [].
  - destruct (e_can_put w e) eqn:E.
    + exists [], r. repeat split; auto; intros x [].
    + destruct ((fix go (l : list nat) : option nat :=
                   match l with [] => None | e0 :: r0 => if e_can_put w e0 then Some e0 else go r0 end) r) as [e'|].
      * destruct IH as (a & b & -> & H1 & H2). exists (e :: a), b. repeat split; auto.
        intros x [<-|I]; auto.
      * intros x [<-|I]; auto.
Qed.

Lemma first_triggered_go w l : forall i,
  match (fix go (i : nat) (l : list nat) : option (nat * nat) :=
           match l with [] => None | t :: r => if e_trig (get_ev (wk w) t) then Some (i, t) else go (S i) r end) i l with
  | Some (j, t) => exists a b, l = a ++ t :: b /\ j = (i + length a)%nat /\ e_trig (get_ev (wk w) t) = true /\
                               (forall x, In x a -> e_trig (get_ev (wk w) x) = false)
  | None => forall x, In x l -> e_trig (get_ev (wk w) x) = false
  end.
Proof.
  induction l as [|t r IH]; intros i; simpl.
  - intros x [].
  - destruct (e_trig (get_ev (wk w) t)) eqn:E.
    + exists [], r. repeat split; auto; try (simpl; lia); intros x [].
    + specialize (IH (S i)).
      destruct ((fix go (i0 : nat) (l0 : list nat) : option (nat * nat) :=
                   match l0 with [] => None | t0 :: r0 => if e_trig (get_ev (wk w) t0) then Some (i0, t0) else go (S i0) r0 end) (S i) r)
        as [[j t']|].
      * destruct IH as (a & b & -> & H0 & H1 & H2). exists (t :: a), b. repeat split; auto; try (simpl; lia).
        intros x [<-|I]; auto.
      * intros x [<-|I]; auto.
Qed.

Theorem first_triggered_spec w toks :
  match first_triggered w toks with
  | Some (j, t) => exists a b, toks = a ++ t :: b /\ j = length a /\ e_trig (get_ev (wk w) t) = true /\
                               (forall x, In x a -> e_trig (get_ev (wk w) x) = false)
  | None => forall x, In x toks -> e_trig (get_ev (wk w) x) = false
  end.
Proof. unfold first_triggered. apply (first_triggered_go w toks 0%nat). Qed.
