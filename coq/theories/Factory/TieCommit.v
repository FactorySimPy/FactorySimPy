(* Tie B for the commit protocol of the node processes.  After `yield self.env.any_of(L)` every node process
     chosen = next((event for event in L if event.triggered), None)       -- the first GRANTED request in edge order
     index  = L.index(chosen)                                              -- the index it records and uses
     for event in L: [if event is not chosen:] event.resourcename.reserve_{put,get}_cancel(event)     -- withdraws the others
   (Source and Sink remove the chosen event from L first and then cancel all of L).  translator/py_to_gallina.py re-reads these
   three steps from Machine.worker, Splitter.worker, Combiner.worker, Source.behaviour (space side), Machine.behaviour,
   Splitter.behaviour, Sink.behaviour (retrieval side) and the choice of Combiner.behaviour's gather loop on every run, as
   functions over lists of abstract events (identity + flags); the translator refuses a loop body that does anything besides
   cancelling (for instance one that changes the list it walks).  Here: each regenerated function equals the specification,
   and the specification is what the model's [first_triggered] / [cancel_others] compute. *)
From Coq Require Import List Arith Lia.
From FV Require Import SrcFragments Kernel World Factory.
Import ListNotations.

Fixpoint idx_of (t : nat) (l : list nat) : nat := match l with [] => 0 | y :: r => if Nat.eqb y t then 0 else S (idx_of t r) end.

Lemma withdraw_guard_ok l x :
  map ev_id (filter (fun e => negb (ev_is e x)) l) = filter (fun t => negb (Nat.eqb t (ev_id x))) (map ev_id l).
Proof. induction l as [|y l IH]; simpl; auto. unfold ev_is at 1. destruct (Nat.eqb (ev_id y) (ev_id x)); simpl; rewrite IH; reflexivity. Qed.

Lemma filter_all_id (t : nat) l : ~ In t l -> filter (fun y => negb (Nat.eqb y t)) l = l.
Proof.
  induction l as [|y l IH]; simpl; auto. intros H. destruct (Nat.eqb_spec y t) as [E|E]; [exfalso; apply H; left; exact E|].
  simpl. rewrite IH; auto.
Qed.

Lemma withdraw_remove_ok l x :
  NoDup (map ev_id l) -> map ev_id (pyremove x l) = filter (fun t => negb (Nat.eqb t (ev_id x))) (map ev_id l).
Proof.
  induction l as [|y l IH]; simpl; auto. intros H. inversion H as [|a b NI ND]; subst. unfold ev_is at 1.
  destruct (Nat.eqb_spec (ev_id y) (ev_id x)) as [E|E]; simpl.
  - rewrite filter_all_id; [reflexivity|]. rewrite <- E. exact NI.
  - rewrite IH by exact ND. reflexivity.
Qed.

Lemma index_ok l x : pyindex x l = idx_of (ev_id x) (map ev_id l).
Proof. induction l as [|y l IH]; simpl; auto. unfold ev_is at 1. destruct (Nat.eqb (ev_id y) (ev_id x)); auto. Qed.

(* ------------------------------------------------------------------ the regenerated functions meet the specification *)
Lemma Machine_worker_pick_src l : Machine_worker_pick l = find ev_triggered l.
Proof. reflexivity. Qed.
Lemma Splitter_worker_pick_src l : Splitter_worker_pick l = find ev_triggered l.
Proof. reflexivity. Qed.
Lemma Combiner_worker_pick_src l : Combiner_worker_pick l = find ev_triggered l.
Proof. reflexivity. Qed.
Lemma Source_behaviour_pick_src l : Source_behaviour_pick l = find ev_triggered l.
Proof. reflexivity. Qed.
Lemma Machine_behaviour_pick_src l : Machine_behaviour_pick l = find ev_triggered l.
Proof. reflexivity. Qed.
Lemma Splitter_behaviour_pick_src l : Splitter_behaviour_pick l = find ev_triggered l.
Proof. reflexivity. Qed.
Lemma Sink_behaviour_pick_src l : Sink_behaviour_pick l = find ev_triggered l.
Proof. reflexivity. Qed.
Lemma Combiner_gather_pick_src l : Combiner_gather_pick l = find ev_triggered l.
Proof. reflexivity. Qed.
Lemma Machine_worker_index_src l x : Machine_worker_index l x = idx_of (ev_id x) (map ev_id l).
Proof. unfold Machine_worker_index. apply index_ok. Qed.
Lemma Machine_worker_withdraw_src l x :
  NoDup (map ev_id l) -> map ev_id (Machine_worker_withdraw l x) = filter (fun t => negb (Nat.eqb t (ev_id x))) (map ev_id l).
Proof. intros H. unfold Machine_worker_withdraw. first [apply withdraw_guard_ok | apply withdraw_remove_ok; exact H]. Qed.
Lemma Splitter_worker_index_src l x : Splitter_worker_index l x = idx_of (ev_id x) (map ev_id l).
Proof. unfold Splitter_worker_index. apply index_ok. Qed.
Lemma Splitter_worker_withdraw_src l x :
  NoDup (map ev_id l) -> map ev_id (Splitter_worker_withdraw l x) = filter (fun t => negb (Nat.eqb t (ev_id x))) (map ev_id l).
Proof. intros H. unfold Splitter_worker_withdraw. first [apply withdraw_guard_ok | apply withdraw_remove_ok; exact H]. Qed.
Lemma Combiner_worker_index_src l x : Combiner_worker_index l x = idx_of (ev_id x) (map ev_id l).
Proof. unfold Combiner_worker_index. apply index_ok. Qed.
Lemma Combiner_worker_withdraw_src l x :
  NoDup (map ev_id l) -> map ev_id (Combiner_worker_withdraw l x) = filter (fun t => negb (Nat.eqb t (ev_id x))) (map ev_id l).
Proof. intros H. unfold Combiner_worker_withdraw. first [apply withdraw_guard_ok | apply withdraw_remove_ok; exact H]. Qed.
Lemma Source_behaviour_index_src l x : Source_behaviour_index l x = idx_of (ev_id x) (map ev_id l).
Proof. unfold Source_behaviour_index. apply index_ok. Qed.
Lemma Source_behaviour_withdraw_src l x :
  NoDup (map ev_id l) -> map ev_id (Source_behaviour_withdraw l x) = filter (fun t => negb (Nat.eqb t (ev_id x))) (map ev_id l).
Proof. intros H. unfold Source_behaviour_withdraw. first [apply withdraw_guard_ok | apply withdraw_remove_ok; exact H]. Qed.
Lemma Machine_behaviour_index_src l x : Machine_behaviour_index l x = idx_of (ev_id x) (map ev_id l).
Proof. unfold Machine_behaviour_index. apply index_ok. Qed.
Lemma Machine_behaviour_withdraw_src l x :
  NoDup (map ev_id l) -> map ev_id (Machine_behaviour_withdraw l x) = filter (fun t => negb (Nat.eqb t (ev_id x))) (map ev_id l).
Proof. intros H. unfold Machine_behaviour_withdraw. first [apply withdraw_guard_ok | apply withdraw_remove_ok; exact H]. Qed.
Lemma Splitter_behaviour_index_src l x : Splitter_behaviour_index l x = idx_of (ev_id x) (map ev_id l).
Proof. unfold Splitter_behaviour_index. apply index_ok. Qed.
Lemma Splitter_behaviour_withdraw_src l x :
  NoDup (map ev_id l) -> map ev_id (Splitter_behaviour_withdraw l x) = filter (fun t => negb (Nat.eqb t (ev_id x))) (map ev_id l).
Proof. intros H. unfold Splitter_behaviour_withdraw. first [apply withdraw_guard_ok | apply withdraw_remove_ok; exact H]. Qed.
Lemma Sink_behaviour_index_src l x : Sink_behaviour_index l x = idx_of (ev_id x) (map ev_id l).
Proof. unfold Sink_behaviour_index. apply index_ok. Qed.
Lemma Sink_behaviour_withdraw_src l x :
  NoDup (map ev_id l) -> map ev_id (Sink_behaviour_withdraw l x) = filter (fun t => negb (Nat.eqb t (ev_id x))) (map ev_id l).
Proof. intros H. unfold Sink_behaviour_withdraw. first [apply withdraw_guard_ok | apply withdraw_remove_ok; exact H]. Qed.

(* ------------------------------------------------------------------ ... and the specification is what the model computes *)
Definition abs_ev (w : world) (t : nat) : pyev :=
  {| ev_id := t; ev_triggered := e_trig (get_ev (wk w) t); ev_processed := e_proc (get_ev (wk w) t); ev_ok := true |}.

Lemma map_abs_ids w l : map ev_id (map (abs_ev w) l) = l.
Proof. induction l as [|t l IH]; simpl; congruence. Qed.

(* the model's choice: the first granted token, with its position *)
Theorem model_choice_is_first_granted w toks :
  first_triggered w toks =
  match find ev_triggered (map (abs_ev w) toks) with
  | Some e => Some (idx_of (ev_id e) toks, ev_id e)
  | None => None
  end.
Proof.
  unfold first_triggered.
  assert (forall l i,
    (fix go (i : nat) (l : list nat) : option (nat * nat) :=
       match l with [] => None | t :: r => if e_trig (get_ev (wk w) t) then Some (i, t) else go (S i) r end) i l =
    match find ev_triggered (map (abs_ev w) l) with Some e => Some (i + idx_of (ev_id e) l, ev_id e) | None => None end) as G.
  { induction l as [|t r IH]; intros i; [reflexivity|]. cbn [map find abs_ev ev_triggered].
    destruct (e_trig (get_ev (wk w) t)) eqn:E.
    - cbn [ev_id idx_of]. rewrite Nat.eqb_refl, Nat.add_0_r. reflexivity.
    - rewrite IH. destruct (find ev_triggered (map (abs_ev w) r)) as [e|] eqn:F; [|reflexivity].
      apply find_some in F. destruct F as (I & T). apply in_map_iff in I. destruct I as (t' & <- & _).
      cbn [abs_ev ev_id ev_triggered] in *. cbn [idx_of].
      destruct (Nat.eqb_spec t t') as [<-|NE]; [congruence|]. f_equal. f_equal. lia. }
  rewrite G. destruct (find _ _); reflexivity.
Qed.

(* the model's withdrawal: exactly the requests whose token is not the kept one, in edge order *)
Theorem model_withdrawal_is_all_others w es ts keep put :
  cancel_others w es ts keep put =
  fold_left (fun w et => if put then e_cancel_put w (fst et) (snd et) else e_cancel_get w (fst et) (snd et))
            (filter (fun et => negb (Nat.eqb (snd et) keep)) (combine es ts)) w.
Proof.
  unfold cancel_others. generalize (combine es ts). intros l. revert w.
  induction l as [|[e t] l IH]; intros w; [reflexivity|]. cbn [fold_left filter snd fst].
  destruct (Nat.eqb t keep); cbn [negb fold_left fst snd]; rewrite IH; reflexivity.
Qed.

(* together, for a regenerated withdrawal function W (any of the seven above): the tokens it withdraws from the event list the
   model's tokens stand for are the tokens the model withdraws *)
Theorem regenerated_withdrawal_is_the_models (W : list pyev -> pyev -> list pyev) :
  (forall l x, NoDup (map ev_id l) -> map ev_id (W l x) = filter (fun t => negb (Nat.eqb t (ev_id x))) (map ev_id l)) ->
  forall w ts keep, NoDup ts ->
  map ev_id (W (map (abs_ev w) ts) (abs_ev w keep)) = filter (fun t => negb (Nat.eqb t keep)) ts.
Proof. intros H w ts keep ND. rewrite H by (rewrite map_abs_ids; exact ND). rewrite map_abs_ids. reflexivity. Qed.

(* ------------------------------------------------------------------ the probe loop of the non-blocking paths (C09): the edge
   chosen is the first out-edge whose can_put() is true; the item is pushed exactly when there is one and dropped otherwise; the
   index-policy paths test can_put() of the drawn edge (a call, not the always-true bound method) *)
Lemma Source_behaviour_probe_src l : Source_behaviour_probe l = find ed_can_put l.
Proof. reflexivity. Qed.
Lemma Source_behaviour_probe_pushes_src r : Source_behaviour_probe_pushes r = match r with Some _ => true | None => false end.
Proof. reflexivity. Qed.
Lemma Source_behaviour_index_probe_src e : Source_behaviour_index_probe e = ed_can_put e.
Proof. reflexivity. Qed.
Lemma Machine_worker_probe_src l : Machine_worker_probe l = find ed_can_put l.
Proof. reflexivity. Qed.
Lemma Machine_worker_probe_pushes_src r : Machine_worker_probe_pushes r = match r with Some _ => true | None => false end.
Proof. reflexivity. Qed.
Lemma Machine_worker_index_probe_src e : Machine_worker_index_probe e = ed_can_put e.
Proof. reflexivity. Qed.
Lemma Splitter_worker_probe_src l : Splitter_worker_probe l = find ed_can_put l.
Proof. reflexivity. Qed.
Lemma Splitter_worker_probe_pushes_src r : Splitter_worker_probe_pushes r = match r with Some _ => true | None => false end.
Proof. reflexivity. Qed.
Lemma Splitter_worker_index_probe_src e : Splitter_worker_index_probe e = ed_can_put e.
Proof. reflexivity. Qed.
Lemma Combiner_worker_probe_src l : Combiner_worker_probe l = find ed_can_put l.
Proof. reflexivity. Qed.
Lemma Combiner_worker_probe_pushes_src r : Combiner_worker_probe_pushes r = match r with Some _ => true | None => false end.
Proof. reflexivity. Qed.
Lemma Combiner_worker_index_probe_src e : Combiner_worker_index_probe e = ed_can_put e.
Proof. reflexivity. Qed.

Definition abs_edge (w : world) (e : nat) : pyedge := {| ed_id := e; ed_can_put := e_can_put w e |}.

(* the model's search: the first out-edge whose probe says yes *)
Theorem model_probe_is_first_with_room w es :
  first_can_put w es = option_map ed_id (find ed_can_put (map (abs_edge w) es)).
Proof.
  unfold first_can_put. induction es as [|e r IH]; [reflexivity|]. cbn [map find abs_edge ed_can_put].
  destruct (e_can_put w e); [reflexivity|]. exact IH.
Qed.
