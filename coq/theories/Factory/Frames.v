(* Frame facts: which fields of the world each operation of World.v / Factory.v leaves alone, one equation per
   operation and field, named <operation>_<field>.  The edges, the items and the trace are read together, as [flow].
   A theorem about a process block rewrites the block to the branch its hypotheses select and then, for each field
   it speaks of, peels the operations of that branch off, outermost first, by rewriting with these equations.  Nodes
   and processes are read through [nth _ (wnodes _) node0] and [nth _ (wprocs _) proc0] (unfold get_node, get_proc),
   so that the equations for wnodes / wprocs and the lemmas about upd do the work. *)
From Coq Require Import List ZArith Lia Bool Arith.
From RecordUpdate Require Import RecordUpdate.
From FV Require Import Kernel World Factory.
From FV Require StoreB.
Import ListNotations.
Open Scope Z_scope.

(* the world a block returns when it ends in [let '(w, t) := ... in (.., ..)]; rewriting with these two instead of
   reducing keeps the check of the step cheap *)
Lemma fst_let {A B C D} (x : A * B) (f : A -> B -> C * D) : fst (let '(a, b) := x in f a b) = fst (f (fst x) (snd x)).
Proof. destruct x. reflexivity. Qed.
Lemma fst_pair {A B} (a : A) (b : B) : fst (a, b) = a.
Proof. reflexivity. Qed.

(* what the movement of items is read from: the edges, the items and the trace, together *)
Definition flow (w : world) : list edge * list iteminfo * list tev := (wedges w, witems w, wlog w).
Definition logged (x : tev) (f : list edge * list iteminfo * list tev) := (fst (fst f), snd (fst f), snd f ++ [x]).
Lemma flow_inv w e i l : flow w = (e, i, l) -> wedges w = e /\ witems w = i /\ wlog w = l.
Proof. intros [= -> -> ->]. repeat split. Qed.
Lemma flow_wedges w w' : flow w' = flow w -> wedges w' = wedges w.
Proof. intros H. apply flow_inv in H. apply H. Qed.

Section OneField.
Variable w : world.

Lemma upd_node_flow n f : flow (upd_node w n f) = flow w. Proof. reflexivity. Qed.
Lemma upd_node_wlog n f : wlog (upd_node w n f) = wlog w. Proof. reflexivity. Qed.
Lemma upd_node_wprocs n f : wprocs (upd_node w n f) = wprocs w. Proof. reflexivity. Qed.
Lemma upd_node_wnodes n f : wnodes (upd_node w n f) = upd n f (wnodes w). Proof. reflexivity. Qed.

Lemma upd_proc_wk p f : wk (upd_proc w p f) = wk w. Proof. reflexivity. Qed.
Lemma upd_proc_flow p f : flow (upd_proc w p f) = flow w. Proof. reflexivity. Qed.
Lemma upd_proc_wedges p f : wedges (upd_proc w p f) = wedges w. Proof. reflexivity. Qed.
Lemma upd_proc_wlog p f : wlog (upd_proc w p f) = wlog w. Proof. reflexivity. Qed.
Lemma upd_proc_wnodes p f : wnodes (upd_proc w p f) = wnodes w. Proof. reflexivity. Qed.
Lemma upd_proc_wprocs p f : wprocs (upd_proc w p f) = upd p f (wprocs w). Proof. reflexivity. Qed.

Lemma setpc_wk p pc : wk (setpc w p pc) = wk w. Proof. reflexivity. Qed.
Lemma setpc_flow p pc : flow (setpc w p pc) = flow w. Proof. reflexivity. Qed.
Lemma setpc_wedges p pc : wedges (setpc w p pc) = wedges w. Proof. reflexivity. Qed.
Lemma setpc_wlog p pc : wlog (setpc w p pc) = wlog w. Proof. reflexivity. Qed.
Lemma setpc_wnodes p pc : wnodes (setpc w p pc) = wnodes w. Proof. reflexivity. Qed.
Lemma setpc_wprocs p pc : wprocs (setpc w p pc) = upd p (fun x => x <| ppc := pc |>) (wprocs w). Proof. reflexivity. Qed.

Lemma upd_item_wprocs i f : wprocs (upd_item w i f) = wprocs w. Proof. reflexivity. Qed.
Lemma upd_item_wlog i f : wlog (upd_item w i f) = wlog w. Proof. reflexivity. Qed.
Lemma upd_item_witems i f : witems (upd_item w i f) = upd i f (witems w). Proof. reflexivity. Qed.

Lemma set_wk_flow k : flow (w <| wk := k |>) = flow w. Proof. reflexivity. Qed.
Lemma set_wk_wprocs k : wprocs (w <| wk := k |>) = wprocs w. Proof. reflexivity. Qed.

Lemma logw_flow x : flow (logw w x) = logged x (flow w). Proof. reflexivity. Qed.
Lemma logw_wlog x : wlog (logw w x) = wlog w ++ [x]. Proof. reflexivity. Qed.
Lemma logw_wnodes x : wnodes (logw w x) = wnodes w. Proof. reflexivity. Qed.
Lemma logw_wprocs x : wprocs (logw w x) = wprocs w. Proof. reflexivity. Qed.
End OneField.

(* ------------------------------------------------------------------ the crash flag, kernel calls, new processes *)
(* crashw, w_succeed, w_timeout, ... write the kernel and the crash flag only: every other field reads [no_kern w] *)
Definition no_kern (w : world) : world := w <| wk := kinit |> <| wcrash := None |>.

Section KernelCalls.
Variable w : world.

Lemma crashw_kern c : no_kern (crashw w c) = no_kern w.
Proof. unfold crashw. destruct (wcrash w); reflexivity. Qed.
Lemma crashw_flow c : flow (crashw w c) = flow w. Proof. exact (f_equal flow (crashw_kern c)). Qed.
Lemma crashw_wnodes c : wnodes (crashw w c) = wnodes w. Proof. exact (f_equal wnodes (crashw_kern c)). Qed.
Lemma crashw_wprocs c : wprocs (crashw w c) = wprocs w. Proof. exact (f_equal wprocs (crashw_kern c)). Qed.
Lemma crashw_wcrash c : wcrash (crashw w c) <> None.
Proof. unfold crashw. destruct (wcrash w) eqn:E; [rewrite E|]; discriminate. Qed.

Lemma w_succeed_kern e s : no_kern (w_succeed w e s) = no_kern w.
Proof. unfold w_succeed. destruct (succeed _ _); [reflexivity|apply crashw_kern]. Qed.
Lemma out_err_kern r s : no_kern (out_err w r s) = no_kern w.
Proof. unfold out_err. destruct r as [| | |[]]; try reflexivity; apply crashw_kern. Qed.
Lemma out_err_wedges r s : wedges (out_err w r s) = wedges w. Proof. exact (f_equal wedges (out_err_kern r s)). Qed.

Lemma w_timeout_kern d : no_kern (fst (w_timeout w d)) = no_kern w.
Proof. unfold w_timeout. destruct (d <? 0); [apply crashw_kern|destruct (timeout _ _); reflexivity]. Qed.
Lemma w_timeout_flow d : flow (fst (w_timeout w d)) = flow w. Proof. exact (f_equal flow (w_timeout_kern d)). Qed.
Lemma w_timeout_wnodes d : wnodes (fst (w_timeout w d)) = wnodes w. Proof. exact (f_equal wnodes (w_timeout_kern d)). Qed.
Lemma w_timeout_wprocs d : wprocs (fst (w_timeout w d)) = wprocs w. Proof. exact (f_equal wprocs (w_timeout_kern d)). Qed.

Lemma w_any_of_kern es : no_kern (fst (w_any_of w es)) = no_kern w.
Proof. unfold w_any_of. destruct (any_of _ _). reflexivity. Qed.
Lemma w_any_of_flow es : flow (fst (w_any_of w es)) = flow w. Proof. exact (f_equal flow (w_any_of_kern es)). Qed.
Lemma w_any_of_wprocs es : wprocs (fst (w_any_of w es)) = wprocs w. Proof. exact (f_equal wprocs (w_any_of_kern es)). Qed.

(* env.process: the new process is the last one; nothing but the kernel and the process table changes *)
Lemma spawn_flow pr : flow (fst (fst (spawn w pr))) = flow w. Proof. reflexivity. Qed.
Lemma spawn_wnodes pr : wnodes (fst (fst (spawn w pr))) = wnodes w. Proof. reflexivity. Qed.
Lemma spawn_wprocs pr :
  wprocs (fst (fst (spawn w pr))) = wprocs w ++ [pr <| pdone := snd (spawn w pr) |> <| palive := true |>].
Proof. reflexivity. Qed.

Lemma spawn_push_flow n i e b : flow (fst (spawn_push w n i e b)) = flow w. Proof. apply spawn_flow. Qed.
Lemma spawn_push_wnodes n i e b : wnodes (fst (spawn_push w n i e b)) = wnodes w. Proof. apply spawn_wnodes. Qed.
End KernelCalls.

Lemma w_succeed_all_kern l : forall w, no_kern (w_succeed_all w l) = no_kern w.
Proof. unfold w_succeed_all. induction l as [|y l IH]; intros w; simpl; [reflexivity|]. rewrite IH. apply w_succeed_kern. Qed.
Lemma w_succeed_all_wedges l w : wedges (w_succeed_all w l) = wedges w. Proof. exact (f_equal wedges (w_succeed_all_kern l w)). Qed.

Section StoreOps.
Variables (w : world) (e : nat).
Lemma store_op_wedges o :
  wedges (fst (fst (store_op w e o))) = upd e (fun x => x <| est := StoreB.step_st (est (get_edge w e)) o |>) (wedges w).
Proof. unfold store_op, StoreB.step_st. destruct (StoreB.step _ _) as [[s r] ts]. reflexivity. Qed.
Lemma e_cancel_put_wedges t :
  wedges (e_cancel_put w e t) = upd e (fun x => x <| est := StoreB.step_st (est (get_edge w e)) (StoreB.CPut t) |>) (wedges w).
Proof.
  rewrite <- store_op_wedges. unfold e_cancel_put. destruct (store_op _ _ _) as [[w1 r] ts].
  rewrite w_succeed_all_wedges. apply out_err_wedges.
Qed.
Lemma e_cancel_get_wedges t :
  wedges (e_cancel_get w e t) = upd e (fun x => x <| est := StoreB.step_st (est (get_edge w e)) (StoreB.CGet t) |>) (wedges w).
Proof.
  rewrite <- store_op_wedges. unfold e_cancel_get. destruct (store_op _ _ _) as [[w1 r] ts].
  rewrite w_succeed_all_wedges. apply out_err_wedges.
Qed.
End StoreOps.

(* ------------------------------------------------------------------ state accounting of a node *)
(* update_state, update_state_rep and check_state write ntstate, nstate, nlast and nsrep of node n and may set the crash
   flag; they touch nothing else.  [no_acct] / [no_nodes] forget what they may write: a field g of a node is kept if it
   does not read the accounting (acct_free g: g x and g (no_acct x) are convertible for a projection g), and every
   field of the world other than wnodes and wcrash reads [no_nodes w] only *)
Definition no_acct (x : node) : node := x <| ntstate := [] |> <| nstate := 0%nat |> <| nlast := None |> <| nsrep := (0, 0) |>.
Definition acct_free {A} (g : node -> A) : Prop := forall x, g x = g (no_acct x).
Lemma acct_free_upd {A} (g : node -> A) f : acct_free g -> (forall x, no_acct (f x) = no_acct x) -> forall x, g (f x) = g x.
Proof. intros G F x. rewrite (G x), (G (f x)), F. reflexivity. Qed.
Definition no_nodes (w : world) : world := w <| wnodes := [] |> <| wcrash := None |>.
Lemma crashw_rest w c : no_nodes (crashw w c) = no_nodes w.
Proof. unfold crashw. destruct (wcrash w); reflexivity. Qed.

Section Accounting.
Variables (w : world) (n : nat).

Lemma update_state_rest st : no_nodes (update_state w n st) = no_nodes w.
Proof. unfold update_state. destruct (nlast _); reflexivity. Qed.
Lemma update_state_flow st : flow (update_state w n st) = flow w. Proof. exact (f_equal flow (update_state_rest st)). Qed.
Lemma update_state_wprocs st : wprocs (update_state w n st) = wprocs w. Proof. exact (f_equal wprocs (update_state_rest st)). Qed.
Lemma update_state_node {A} (g : node -> A) st m d :
  acct_free g -> g (nth m (wnodes (update_state w n st)) d) = g (nth m (wnodes w) d).
Proof.
  intros G. unfold update_state. destruct (nlast _); rewrite !upd_node_wnodes;
    rewrite !(nth_upd_kept g) by (apply acct_free_upd; [exact G|reflexivity]); reflexivity.
Qed.

Lemma update_state_rep_cases :
  exists f, (forall x, no_acct (f x) = no_acct x) /\
            (update_state_rep w n = upd_node w n f \/ exists c, update_state_rep w n = crashw (upd_node w n f) c).
Proof.
  unfold update_state_rep. destruct (nlast _); [destruct (nsrep _), (count_threads _), (_ >? _)|];
    eexists; (split; [|eauto]); reflexivity.
Qed.
Lemma update_state_rep_rest : no_nodes (update_state_rep w n) = no_nodes w.
Proof. destruct update_state_rep_cases as (f & _ & [->|(c & ->)]); rewrite ?crashw_rest; reflexivity. Qed.
Lemma update_state_rep_wk : wk (update_state_rep w n) = wk w. Proof. exact (f_equal wk update_state_rep_rest). Qed.
Lemma update_state_rep_flow : flow (update_state_rep w n) = flow w. Proof. exact (f_equal flow update_state_rep_rest). Qed.
Lemma update_state_rep_wedges : wedges (update_state_rep w n) = wedges w. Proof. exact (f_equal wedges update_state_rep_rest). Qed.
Lemma update_state_rep_wlog : wlog (update_state_rep w n) = wlog w. Proof. exact (f_equal wlog update_state_rep_rest). Qed.
Lemma update_state_rep_wprocs : wprocs (update_state_rep w n) = wprocs w. Proof. exact (f_equal wprocs update_state_rep_rest). Qed.
Lemma update_state_rep_nodes : length (wnodes (update_state_rep w n)) = length (wnodes w).
Proof. destruct update_state_rep_cases as (f & _ & [->|(c & ->)]); rewrite ?crashw_wnodes; apply upd_length. Qed.
Lemma update_state_rep_node {A} (g : node -> A) m d :
  acct_free g -> g (nth m (wnodes (update_state_rep w n)) d) = g (nth m (wnodes w) d).
Proof.
  intros G. destruct update_state_rep_cases as (f & F & [->|(c & ->)]); rewrite ?crashw_wnodes; apply nth_upd_kept, acct_free_upd; assumption.
Qed.

Lemma check_state_cases : (exists c, check_state w n = crashw w c) \/ (exists st, check_state w n = update_state w n st).
Proof.
  unfold check_state. destruct (count_threads _), (_ >? _); [|destruct (_ && _); [|destruct (_ >? _); [|destruct (_ =? _)]]]; eauto.
Qed.
Lemma check_state_rest : no_nodes (check_state w n) = no_nodes w.
Proof. destruct check_state_cases as [[c ->]|[st ->]]; [apply crashw_rest|apply update_state_rest]. Qed.
Lemma check_state_flow : flow (check_state w n) = flow w. Proof. exact (f_equal flow check_state_rest). Qed.
Lemma check_state_wprocs : wprocs (check_state w n) = wprocs w. Proof. exact (f_equal wprocs check_state_rest). Qed.
Lemma check_state_node {A} (g : node -> A) m d :
  acct_free g -> g (nth m (wnodes (check_state w n)) d) = g (nth m (wnodes w) d).
Proof. intros G. destruct check_state_cases as [[c ->]|[st ->]]; [rewrite crashw_wnodes; reflexivity|apply update_state_node, G]. Qed.
End Accounting.

Lemma me_setpc_upd w p f pc : (p < length (wprocs w))%nat -> me (setpc (upd_proc w p f) p pc) p = f (me w p) <| ppc := pc |>.
Proof. intros L. unfold me, get_proc. rewrite setpc_wprocs, upd_proc_wprocs, !nth_upd_same by (rewrite ?upd_length; exact L). reflexivity. Qed.

(* a block that hands an item to a push process and then only sets its own program counter: the table has one process
   more, the push of that item to that edge; [w0] is the world the block started from *)
Lemma push_started w0 w n i e b p pc : length (wprocs w) = length (wprocs w0) -> (p < length (wprocs w0))%nat ->
  let w' := setpc (fst (spawn_push w n i e b)) p pc in
  length (wprocs w') = S (length (wprocs w0)) /\
  let q := nth (length (wprocs w0)) (wprocs w') proc0 in
  pkd q = KPush /\ pown q = n /\ pit q = i /\ pix q = e /\ ppc q = 0%nat /\ palive q = true.
Proof.
  intros E L. cbv zeta. unfold setpc, spawn_push. rewrite fst_let, fst_let, fst_pair, upd_proc_wprocs, spawn_wprocs.
  edestruct (upd_snoc (A := proc) p) as [-> ->]; [exact E|exact L|].
  repeat split.
Qed.

Section Release.
Variables (w : world) (p n : nat).
Lemma worker_release_flow : flow (fst (worker_release w p n)) = flow w.
Proof. unfold worker_release. destruct (res_release _ _ _ _) as [[[k r] g]|]; [reflexivity|apply crashw_flow]. Qed.
Lemma worker_release_node {A} (g : node -> A) m d : (forall x r, g (x <| nres := r |>) = g x) ->
  g (nth m (wnodes (fst (worker_release w p n))) d) = g (nth m (wnodes w) d).
Proof.
  intros G. unfold worker_release. destruct (res_release _ _ _ _) as [[[k r] t]|]; rewrite fst_pair.
  - rewrite setpc_wnodes, upd_node_wnodes. apply nth_upd_kept. intros x. apply G.
  - rewrite crashw_wnodes. reflexivity.
Qed.
End Release.

Section SourceLoop.
Variables (w : world) (p n : nat).
Lemma source_loop_flow :
  flow (fst (source_loop w p n)) = logged (LDraw n 0 (stream_at (ndelays (get_node w n)) (ndptr (get_node w n)))) (flow w).
Proof.
  unfold source_loop, draw_delay, get_node. destruct (_ <? 0); [|rewrite fst_let]; rewrite fst_pair, ?setpc_flow, ?w_timeout_flow, ?crashw_flow;
    rewrite logw_flow, upd_node_flow, update_state_flow, (update_state_node _ _ ndelays), (update_state_node _ _ ndptr)
      by (intro; reflexivity); reflexivity.
Qed.
Lemma source_loop_ndisc m d : ndisc (nth m (wnodes (fst (source_loop w p n))) d) = ndisc (nth m (wnodes w) d).
Proof.
  unfold source_loop, draw_delay. destruct (_ <? 0); [|rewrite fst_let]; rewrite fst_pair, ?setpc_wnodes, ?w_timeout_wnodes, ?crashw_wnodes;
    rewrite logw_wnodes, upd_node_wnodes, (nth_upd_kept ndisc), (update_state_node _ _ ndisc) by (try intro; reflexivity); reflexivity.
Qed.
End SourceLoop.

(* a draw reads the selection fields of its node; the blocks draw right after an update of that node that keeps them *)
Definition sel_fields (x : node) := (ninsel x, noutsel x, ninptr x, noutptr x, nins x, nouts x).
Lemma sel_fields_upd w n f : (forall x, sel_fields (f x) = sel_fields x) ->
  sel_fields (get_node (upd_node w n f) n) = sel_fields (get_node w n).
Proof. intros F. unfold get_node. rewrite upd_node_wnodes. apply (nth_upd_kept sel_fields), F. Qed.

Lemma draw_sel_round_robin w w0 n (out : bool) : sel_fields (get_node w0 n) = sel_fields (get_node w n) ->
  let nd := get_node w n in
  (if out then noutsel nd else ninsel nd) = PRoundRobin ->
  draw_sel w0 n out =
  (upd_node w0 n (fun x => if out then x <| noutptr ::= S |> else x <| ninptr ::= S |>),
   Some (Z.of_nat ((if out then noutptr nd else ninptr nd) mod length (if out then nouts nd else nins nd)))).
Proof. intros [= S1 S2 S3 S4 S5 S6] nd P. unfold draw_sel. rewrite S1, S2, S3, S4, S5, S6. fold nd. rewrite P, Nat2Z.inj_mod. reflexivity. Qed.
Lemma draw_sel_const w w0 n (out : bool) i : sel_fields (get_node w0 n) = sel_fields (get_node w n) ->
  (if out then noutsel (get_node w n) else ninsel (get_node w n)) = PConst i -> draw_sel w0 n out = (w0, Some i).
Proof. intros [= S1 S2 _ _ _ _] P. unfold draw_sel. rewrite S1, S2, P. reflexivity. Qed.
Lemma in_range_mod k (es : list nat) : es <> [] -> negb (in_range (Z.of_nat (k mod length es)) (length es)) = false.
Proof.
  intros NE. assert (length es <> 0)%nat by (destruct es; [congruence|discriminate]).
  pose proof (Nat.mod_upper_bound k (length es)). unfold in_range. apply negb_false_iff, andb_true_iff. split; [apply Z.leb_le|apply Z.ltb_lt]; lia.
Qed.
