(* C08: Machine and Combiner ask for their worker slot before they touch an in-edge.
   [quiet w w']: no edge, no flow item and no trace entry differs -- nothing was reserved, pulled,
   pushed, packed or drawn.  The loop heads of Machine.behaviour (machine_request) and of
   Combiner.behaviour (combiner_head; reached from the end of the set-up period, pc 1, and after a
   finished pallet has been handed to its worker process, pc >= 6) are quiet and suspend the process
   on the event of the slot request just issued (or the run has crashed): every reservation and
   retrieval of the node's behaviour process happens in a later resumption, i.e. with the slot
   granted. *)
From Coq Require Import List Arith Lia.
From RecordUpdate Require Import RecordUpdate.
From FV Require Import Kernel World Factory Frames.
Import ListNotations.

Definition quiet (w w' : world) : Prop :=
  wedges w' = wedges w /\ witems w' = witems w /\ wlog w' = wlog w.

Lemma quiet_refl w : quiet w w. Proof. repeat split. Qed.
Lemma quiet_upd_proc w p f : quiet w (upd_proc w p f). Proof. repeat split. Qed.
Lemma quiet_setpc w p c : quiet w (setpc w p c). Proof. repeat split. Qed.
Lemma quiet_setk w k : quiet w (w <| wk := k |>). Proof. repeat split. Qed.

(* quiet is equality of [Frames.flow]: the frame equations compose by rewriting *)
Lemma quiet_flow w w' : flow w' = flow w -> quiet w w'.
Proof. apply flow_inv. Qed.
Lemma quiet_from w w1 w' : flow w1 = flow w -> quiet w1 w' -> quiet w w'.
Proof. unfold quiet. intros [= <- <- <-] Q. exact Q. Qed.

(* what a slot request does: quiet, and the process is suspended on the request's own event *)
Definition waits_for_slot (r : world * yld) (p : nat) : Prop :=
  wcrash (fst r) <> None \/ exists q, snd r = YEvent q /\ (p < length (wprocs (fst r)) -> ptk (me (fst r) p) = q)%nat.

Lemma granted_waits w p n r q pc :
  waits_for_slot (setpc (upd_proc (upd_node w n (fun x => x <| nres := r |>)) p (fun x => x <| ptk := q |>)) p pc, YEvent q) p.
Proof.
  right. exists q. split; [reflexivity|]. unfold me, get_proc. rewrite fst_pair, setpc_wprocs, upd_proc_wprocs, !upd_length. intros L.
  rewrite (nth_upd_kept ptk), nth_upd_same by (reflexivity || exact L). reflexivity.
Qed.
Lemma crashed_waits w c p : waits_for_slot (crashw w c, YDone) p.
Proof. left. apply crashw_wcrash. Qed.

Lemma sc_request_slot w p n pc : quiet w (fst (sc_request w p n pc)) /\ waits_for_slot (sc_request w p n pc) p.
Proof.
  unfold sc_request. destruct (res_request _ _ _) as [[[k r] q]|].
  - split; [repeat split|apply granted_waits].
  - split; [apply quiet_flow, crashw_flow|apply crashed_waits].
Qed.

Theorem combiner_head_slot_first w p n :
  quiet w (fst (combiner_head w p n)) /\ waits_for_slot (combiner_head w p n) p.
Proof.
  unfold combiner_head. split; [|apply sc_request_slot].
  eapply quiet_from; [apply check_state_flow|apply sc_request_slot].
Qed.

Theorem machine_request_slot_first w p n :
  quiet w (fst (machine_request w p n)) /\ waits_for_slot (machine_request w p n) p.
Proof.
  unfold machine_request. cbv zeta. destruct (res_request _ _ _) as [[[k r] q]|].
  - split; [|apply granted_waits]. eapply quiet_from; [apply update_state_rep_flow|repeat split].
  - split; [|apply crashed_waits]. eapply quiet_from; [apply update_state_rep_flow|apply quiet_flow, crashw_flow].
Qed.

(* the combiner's process block at the end of set-up *)
Theorem combiner_after_setup_slot_first w p :
  ppc (me w p) = 1%nat ->
  quiet w (fst (combiner_block w p)) /\ waits_for_slot (combiner_block w p) p.
Proof.
  intros H. unfold combiner_block. rewrite H. split; [|apply combiner_head_slot_first].
  eapply quiet_from; [apply update_state_flow|apply combiner_head_slot_first].
Qed.

(* ... and after a finished pallet has been handed to its worker process *)
Theorem combiner_after_handover_slot_first w p :
  (6 <= ppc (me w p))%nat ->
  quiet w (fst (combiner_block w p)) /\ waits_for_slot (combiner_block w p) p.
Proof.
  intros H. unfold combiner_block.
  destruct (ppc (me w p)) as [|[|[|[|[|[|c]]]]]]; try lia. cbv zeta.
  destruct (spawn _ _) as [[w1 wp] dn] eqn:ES. apply (f_equal (fun x => flow (fst (fst x)))) in ES. rewrite spawn_flow in ES.
  split; [|apply combiner_head_slot_first].
  eapply quiet_from; [|apply combiner_head_slot_first]. rewrite upd_node_flow. symmetry. exact ES.
Qed.
