(* Whole-factory invariant NI: in every reachable world of every configuration every node's worker-slot
   resource has the configured capacity (work_capacity) and never more users than that -- C08's
   "a machine holds at most work_capacity items at once".  NI survives every operation of the world
   (first part); Steps.v and FactoryInv.v lift that to every run. *)
From Coq Require Import List ZArith Lia Bool Arith.
From RecordUpdate Require Import RecordUpdate.
From FV Require Import ListLemmas Kernel World Factory Steps.
From FV Require FactoryInv.
From FV Require StoreB.
Import ListNotations.
Open Scope Z_scope.

Definition NRok (nd : node) : Prop :=
  r_cap (nres nd) = nwcap nd /\ (length (r_users (nres nd)) <= nwcap nd)%nat.
Definition NI (w : world) : Prop := Forall NRok (wnodes w).

Create HintDb ndb.

Lemma NI_same w w' : wnodes w' = wnodes w -> NI w -> NI w'.
Proof. unfold NI. intros ->. auto. Qed.

(* the four Resource operations keep the capacity and the bound on the users *)
Definition ROK (c : nat) (r : res) : Prop := r_cap r = c /\ (length (r_users r) <= c)%nat.
Lemma res_trig_put_ok c k r k' r' : res_trig_put k r = Some (k', r') -> ROK c r -> ROK c r'.
Proof.
  unfold res_trig_put, ROK. destruct (r_putq r); [intros [= <- <-]; auto|].
  destruct (Nat.ltb_spec (length (r_users r)) (r_cap r)); [|intros [= <- <-]; auto].
  destruct (succeed k n); [|discriminate]. intros [= <- <-] (A & B). simpl. rewrite app_length; simpl. split; auto. lia.
Qed.
Lemma res_trig_get_ok c k r k' r' : res_trig_get k r = Some (k', r') -> ROK c r -> ROK c r'.
Proof.
  unfold res_trig_get, ROK. destruct (r_getq r) as [|[g q] rest]; [intros [= <- <-]; auto|].
  destruct (succeed k g); [|discriminate]. intros [= <- <-] (A & B). simpl. split; auto.
  pose proof (remove_first_len (Nat.eqb q) (r_users r)). lia.
Qed.
Lemma res_request_ok c k rid r k' r' q : res_request k rid r = Some (k', r', q) -> ROK c r -> ROK c r'.
Proof.
  unfold res_request. simpl. destruct (res_trig_put _ _) as [[k3 r3]|] eqn:E; [|discriminate].
  intros [= <- <- <-] H. eapply res_trig_put_ok; [exact E|]. exact H.
Qed.
Lemma res_release_ok c k rid r q k' r' g : res_release k rid r q = Some (k', r', g) -> ROK c r -> ROK c r'.
Proof.
  unfold res_release. simpl. destruct (res_trig_get _ _) as [[k3 r3]|] eqn:E; [|discriminate].
  intros [= <- <- <-] H. eapply res_trig_get_ok; [exact E|]. exact H.
Qed.

Lemma crashw_n w c : NI w -> NI (crashw w c).
Proof. unfold crashw. destruct (wcrash w); auto. Qed.
Lemma logw_n w x : NI w -> NI (logw w x).
Proof. auto. Qed.
Lemma upd_edge_n w e f : NI w -> NI (upd_edge w e f).
Proof. auto. Qed.
Lemma upd_node_n w n f : (forall x, NRok x -> NRok (f x)) -> NI w -> NI (upd_node w n f).
Proof. intros K H. unfold NI, upd_node. cbn [wnodes set]. simpl. apply upd_forall; auto. Qed.
Lemma upd_node_at w n f : (NRok (get_node w n) -> NRok (f (get_node w n))) -> NI w -> NI (upd_node w n f).
Proof. intros K H. unfold NI, upd_node. cbn [wnodes set]. simpl. apply (upd_forall_at _ _ _ _ node0); assumption. Qed.
Lemma upd_proc_n w e f : NI w -> NI (upd_proc w e f).
Proof. auto. Qed.
Lemma upd_item_n w e f : NI w -> NI (upd_item w e f).
Proof. auto. Qed.
Lemma setpc_n w p pc : NI w -> NI (setpc w p pc).
Proof. auto. Qed.
#[local] Hint Resolve crashw_n logw_n upd_edge_n upd_proc_n upd_item_n setpc_n : ndb.
Ltac nrok_side :=
  let x := fresh in let Hx := fresh in intros x Hx;
  first [exact Hx
        | repeat (match goal with
                  | |- context [if ?b then _ else _] => destruct b
                  | |- context [match ?b with _ => _ end] => destruct b
                  end); exact Hx].
#[local] Hint Extern 3 (NI (upd_node _ _ _)) => (apply upd_node_n; [nrok_side|]) : ndb.

Lemma NI_get w n : NI w -> NRok (get_node w n).
Proof.
  unfold NI, get_node. intros H. destruct (nth_error (wnodes w) n) as [x|] eqn:E.
  - rewrite (nth_error_nth _ _ node0 E). eapply Forall_forall; [exact H|]. eapply nth_error_In; eauto.
  - rewrite nth_overflow; [|apply nth_error_None; exact E]. unfold NRok, node0; simpl. auto.
Qed.
(* replacing the resource of node n by the outcome of a Resource operation on it *)
Lemma set_res_n w n r : NI w -> ROK (nwcap (get_node w n)) r -> NI (upd_node w n (fun x => x <| nres := r |>)).
Proof. intros H (A & B). apply upd_node_at; auto. intros _. unfold NRok. cbn. auto. Qed.

Lemma w_succeed_n w e s : NI w -> NI (w_succeed w e s).
Proof.
  unfold w_succeed. intros H. destruct (succeed (wk w) e) eqn:E; [exact H|apply crashw_n; auto].
Qed.
#[local] Hint Resolve w_succeed_n : ndb.

Lemma w_succeed_all_n es : forall w, NI w -> NI (w_succeed_all w es).
Proof. apply succeed_all_lift; eauto using crashw_n, w_succeed_n. Qed.
#[local] Hint Resolve w_succeed_all_n : ndb.

Lemma w_event_n w w1 e : w_event w = (w1, e) -> NI w -> NI w1.
Proof. unfold w_event. simpl. intros [= <- _] H. exact H. Qed.

Lemma w_timeout_n w d w1 e : w_timeout w d = (w1, e) -> NI w -> NI w1.
Proof.
  unfold w_timeout. destruct (d <? 0).
  - intros [= <- _] H. auto with ndb.
  - destruct (timeout (wk w) d) as [k e0]. intros [= <- _] H. exact H.
Qed.

Lemma w_any_of_n w es w1 c : w_any_of w es = (w1, c) -> NI w -> NI w1.
Proof.
  unfold w_any_of. destruct (any_of (wk w) es) as [k e0]. intros [= <- _] H. exact H.
Qed.

Lemma spawn_n w p w1 pid d : spawn w p = (w1, pid, d) -> NI w -> NI w1.
Proof.
  unfold spawn. intros E H.
  destruct (w_event w) as [wa done] eqn:E1. destruct (w_event wa) as [wb ini] eqn:E2.
  inversion E; subst. clear E.
  assert (NI wb) as Hb by (eapply w_event_n; [exact E2|]; eapply w_event_n; [exact E1|]; exact H). exact Hb.
Qed.

Lemma e_update_level_n w e : NI w -> NI (e_update_level w e).
Proof. auto. Qed.
#[local] Hint Resolve e_update_level_n : ndb.

Lemma store_op_n w e o w1 r ts : store_op w e o = (w1, r, ts) -> NI w -> NI w1.
Proof. unfold store_op. destruct (StoreB.step _ _) as [[s' r0] ts0]. intros [= <- _ _] H. auto. Qed.
#[local] Hint Resolve w_event_n store_op_n : ndb.

Lemma out_err_n w r s : NI w -> NI (out_err w r s).
Proof. apply out_err_lift; eauto using crashw_n. Qed.
#[local] Hint Resolve out_err_n : ndb.

Lemma e_reserve_put_n w e p w1 t : e_reserve_put w e p = (w1, t) -> NI w -> NI w1.
Proof. eapply reserve_put_lift with (okop := fun _ => True); eauto with ndb. Qed.

Lemma e_reserve_get_n w e p w1 t : e_reserve_get w e p = (w1, t) -> NI w -> NI w1.
Proof. eapply reserve_get_lift with (okop := fun _ => True); eauto with ndb. Qed.

Lemma e_cancel_put_n w e t : NI w -> NI (e_cancel_put w e t).
Proof. eapply cancel_put_lift with (okop := fun _ => True); eauto with ndb. Qed.
Lemma e_cancel_get_n w e t : NI w -> NI (e_cancel_get w e t).
Proof. eapply cancel_get_lift with (okop := fun _ => True); eauto with ndb. Qed.
#[local] Hint Resolve e_cancel_put_n e_cancel_get_n : ndb.

Lemma fleet_after_put_n w e : NI w -> NI (fleet_after_put w e).
Proof. apply fleet_after_put_lift; eauto using crashw_n, w_succeed_n. Qed.
#[local] Hint Resolve fleet_after_put_n : ndb.

Lemma e_put_n w e p t i : NI w -> NI (e_put w e p t i).
Proof. apply (put_lift NI crashw_n w_succeed_n upd_edge_n); [intros *; apply spawn_n|intros w0 x _; apply logw_n]. Qed.
#[local] Hint Resolve e_put_n : ndb.

Lemma e_get_n w e p t n w1 r : e_get w e p t n = (w1, r) -> NI w -> NI w1.
Proof. apply (get_lift NI crashw_n w_succeed_n upd_edge_n). intros w0 x _. apply logw_n. Qed.

Lemma NRok_frame f : node_frame f -> forall x, NRok x -> NRok (f x).
Proof. intros F x. unfold NRok. rewrite (nf_nres f F), (nf_nwcap f F). auto. Qed.
Lemma update_state_n w n s : NI w -> NI (update_state w n s).
Proof. apply update_state_lift. intros w' f F. apply upd_node_n, NRok_frame, F. Qed.
#[local] Hint Resolve update_state_n : ndb.

Lemma cancel_others_nn w es ts keep put : NI w -> NI (cancel_others w es ts keep put).
Proof. apply cancel_others_lift; eauto using e_cancel_put_n, e_cancel_get_n. Qed.
#[local] Hint Resolve cancel_others_nn : ndb.

Lemma set_creation_n w i n : NI w -> NI (set_creation w i n).
Proof. intros H. unfold set_creation. auto 8 with ndb. Qed.
Lemma update_state_rep_n w n : NI w -> NI (update_state_rep w n).
Proof. apply (update_state_rep_lift NI crashw_n). intros w' f F. apply upd_node_n, NRok_frame, F. Qed.
Lemma occupancy_n w n a : NI w -> NI (occupancy w n a).
Proof. intros H. unfold occupancy. auto 8 with ndb. Qed.
Lemma set_thread_n w n p b : NI w -> NI (set_thread w n p b).
Proof. intros H. unfold set_thread. auto 8 with ndb. Qed.
Lemma add_blocked_time_n w p n : NI w -> NI (add_blocked_time w p n).
Proof. intros H. unfold add_blocked_time. auto 8 with ndb. Qed.
#[local] Hint Resolve set_creation_n update_state_rep_n occupancy_n set_thread_n add_blocked_time_n : ndb.

#[local] Hint Resolve w_timeout_n w_any_of_n spawn_n e_reserve_put_n e_reserve_get_n e_get_n NRok_frame upd_node_n : ndb.

Lemma step_n kd pc0 p n w w' : step kd pc0 p n w w' -> NI w -> NI w'.
Proof.
  destruct 1; intros HN; auto 6 with ndb.
  1: { apply (set_res_n (w <| wk := k |>)); [exact HN|]. eapply res_request_ok; [eassumption|]. apply (NI_get _ n HN). }
  1: { apply (set_res_n (w <| wk := k |>)); [exact HN|]. eapply res_release_ok; [eassumption|]. apply (NI_get _ n HN). }
  all: eauto 6 with ndb.
Qed.
Lemma discard_n n w1 w t i : NI w1 -> nblocking (get_node w1 n) = false -> NI w -> t = wnow w -> NI (discard w n t i).
Proof. intros _ _ H _. unfold discard. auto with ndb. Qed.

Lemma sub_n kd pc0 p n w w' : (reach kd pc0 p n w w -> reach kd pc0 p n w w') -> NI w -> NI w'.
Proof. apply (sub_lift NI step_n discard_n). Qed.

Lemma source_loop_n w p n : NI w -> NI (fst (source_loop w p n)).
Proof. apply (sub_n KSourceB 0 p n), source_loop_r. Qed.
Lemma sink_loop_n w p n : NI w -> NI (fst (sink_loop w p n)).
Proof. apply (sub_n KSinkB 0 p n), sink_loop_r. Qed.
Lemma machine_request_n w p n : NI w -> NI (fst (machine_request w p n)).
Proof. apply (sub_n KMachineB 0 p n), machine_request_r. Qed.
Lemma machine_start_worker_n w p n i : NI w -> NI (fst (machine_start_worker w p n i)).
Proof. apply (sub_n KMachineB 0 p n), machine_start_worker_r. Qed.
Lemma worker_release_n w p n : NI w -> NI (fst (worker_release w p n)).
Proof. apply (sub_n KWorker 0 p n), worker_release_r. Qed.
Lemma check_state_n w n : NI w -> NI (check_state w n).
Proof. apply (sub_n KSplitWorker 0 0 n), check_state_r. exact I. Qed.
Lemma sc_request_n w p n pc : NI w -> NI (fst (sc_request w p n pc)).
Proof. apply (sub_n KSplitWorker 0 p n), sc_request_r. auto. Qed.
Lemma sc_release_n w p n : NI w -> NI (fst (sc_release w p n)).
Proof. apply (sub_n KSplitWorker 0 p n), sc_release_r. left; reflexivity. Qed.
Lemma sc_dispatch_n w p n c ph : NI w -> NI (fst (sc_dispatch w p n c ph)).
Proof. apply (sub_n KSplitWorker 0 p n), sc_dispatch_r. left; reflexivity. Qed.
Lemma sc_next_n w p n : NI w -> NI (fst (sc_next w p n)).
Proof. apply (sub_n KSplitWorker 0 p n), sc_next_r. left; reflexivity. Qed.
Lemma sc_worker_cont_n w p n : NI w -> NI (fst (sc_worker_cont w p n)).
Proof. apply (sub_n KSplitWorker 0 p n), sc_worker_cont_r. left; reflexivity. Qed.
Lemma splitter_head_n w p n : NI w -> NI (fst (splitter_head w p n)).
Proof. apply (sub_n KSplitterB 0 p n), splitter_head_r. Qed.
Lemma splitter_start_n w p n pal : NI w -> NI (fst (splitter_start w p n pal)).
Proof. apply (sub_n KSplitterB 0 p n), splitter_start_r. Qed.
Lemma combiner_head_n w p n : NI w -> NI (fst (combiner_head w p n)).
Proof. apply (sub_n KCombinerB 0 p n), combiner_head_r. Qed.
Lemma combiner_loop_n w p n : NI w -> NI (fst (combiner_loop w p n)).
Proof. apply (sub_n KCombinerB 0 p n), combiner_loop_r. Qed.

Lemma run_cbs_n l : forall w, NI w -> NI (fold_left run_cb l w).
Proof.
  apply (run_cbs_lift NI step_n discard_n); auto with ndb.
  - intros w n k r E H. apply (set_res_n (w <| wk := k |>)); [exact H|]. eapply res_trig_get_ok; [exact E|]. apply (NI_get _ _ H).
  - intros w n k r E H. apply (set_res_n (w <| wk := k |>)); [exact H|]. eapply res_trig_put_ok; [exact E|]. apply (NI_get _ _ H).
Qed.

(* one kernel step keeps every node's worker-slot resource within its capacity *)
Theorem fstep_n w w' : NI w -> fstep w = Some w' -> NI w'.
Proof. apply (FactoryInv.fstep_lift NI); auto using run_cbs_n. Qed.

Lemma mk_world_n nodes edges order : Forall NRok nodes -> NI (mk_world nodes edges order).
Proof. intros H0. apply (FactoryInv.mk_steps_lift NI); eauto with ndb. Qed.

(* C08 (capacity part), for every factory configuration whose nodes start with an idle worker-slot
   resource of capacity work_capacity, and every number of kernel steps: no node ever has more busy
   worker slots than its work_capacity *)
Theorem worker_slots_bounded_everywhere nodes edges order n :
  Forall NRok nodes ->
  forall i nd, nth_error (wnodes (FactoryInv.iter_fstep n (mk_world nodes edges order))) i = Some nd ->
    r_cap (nres nd) = nwcap nd /\ (length (r_users (nres nd)) <= nwcap nd)%nat.
Proof.
  intros H0 i nd E.
  pose proof (FactoryInv.iter_fstep_lift NI (fun w k _ _ _ H => H) run_cbs_n n _ (mk_world_n nodes edges order H0)) as K.
  unfold NI in K. eapply Forall_forall in K; [exact K|]. eapply nth_error_In; eauto.
Qed.

(* the initial resource the library creates: simpy.Resource(env, capacity = work_capacity) *)
Lemma fresh_node_ok nd : nres nd = res_init (nwcap nd) -> NRok nd.
Proof. intros E. unfold NRok. rewrite E. simpl. split; auto. lia. Qed.
