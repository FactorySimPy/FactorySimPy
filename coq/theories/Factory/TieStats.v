(* Tie B for the fleet's departure tests and for the arithmetic of the statistics code: expressions REGENERATED
   from /repo (generated/SrcFragments.v) on every run, against what the model computes.
     FleetStore._do_put                 capacity trigger            -> Factory.fleet_after_put
     FleetStore.fleet_activation_process  "something is waiting"    -> Factory.fleetact_block
     FleetStore.move_to_ready_items     two transit legs            -> Factory.fleetmove_block (pc 0 -> 1 -> 2)
     Node.update_state                  elapsed, charged total      -> Accounting.nacc_step / Factory.update_state
     Sink.behaviour                     cycle-time increment        -> FactoryStamp.contrib (LRecv entry)
     *_update_time_averaged_level       weighted-sum increment, level -> Accounting.lacc_step / World.e_update_level *)
From Coq Require Import List ZArith Lia Arith.
From FV Require Import SrcFragments Lens Accounting World.
From FV Require StoreB FactoryStamp.
Import ListNotations.
Open Scope Z_scope.

Lemma eqb_nat_Z a b : (a =? b)%nat = (Z.of_nat a =? Z.of_nat b).
Proof. destruct (Nat.eqb_spec a b); destruct (Z.eqb_spec (Z.of_nat a) (Z.of_nat b)); auto; lia. Qed.

(* the capacity trigger of the model's fleet_after_put is the regenerated test *)
Lemma fleet_capacity_trigger_src s :
  FleetStore_capacity_trigger (lensB s) = (length (StoreB.transit s) + length (StoreB.ready s) =? StoreB.cap s)%nat.
Proof. unfold FleetStore_capacity_trigger, lensB, zl. simpl. rewrite eqb_nat_Z, Nat2Z.inj_add. reflexivity. Qed.

(* a batch leaves exactly when something is waiting *)
Lemma fleet_activation_guard_src s :
  FleetStore_activation_guard (lensB s) = match StoreB.transit s with [] => false | _ => true end.
Proof. unfold FleetStore_activation_guard, lensB, zl. simpl. destruct (StoreB.transit s); reflexivity. Qed.

(* a trip is two transit legs *)
Lemma fleet_transit_legs_src : FleetStore_transit_legs = 2.
Proof. reflexivity. Qed.

(* Node.update_state charges the elapsed time to the state that is being left *)
Lemma node_elapsed_src now_ last : Node_elapsed now_ last = now_ - last.
Proof. reflexivity. Qed.
Lemma node_state_charge_src a t s' :
  (na_state a < length (na_tot a))%nat ->
  nth (na_state a) (na_tot (nacc_step a (t, s'))) 0 = Node_state_charge (nth (na_state a) (na_tot a) 0) t (na_last a).
Proof.
  intros L. unfold nacc_step, Node_state_charge. simpl.
  generalize dependent (na_state a). generalize (na_tot a). induction l as [|x l IH]; intros [|k] L; simpl in *; try lia.
  apply IH. lia.
Qed.

(* the sink adds reception time - creation stamp; this is the contribution of an LRecv entry to the cycle total *)
Lemma sink_cycle_increment_src n t i c : FactoryStamp.contrib n (LRecv t n i c) = Sink_cycle_increment t c.
Proof. unfold FactoryStamp.contrib, Sink_cycle_increment. rewrite Nat.eqb_refl. reflexivity. Qed.

(* _update_time_averaged_level of both stores is the accumulator step of Accounting.v on the true occupancy *)
Lemma level_increment_src a t n :
  l_sum (lacc_step a (t, n)) = l_sum a + BufferStore_level_increment t (l_t a) (l_n a) /\
  l_sum (lacc_step a (t, n)) = l_sum a + FleetStore_level_increment t (l_t a) (l_n a).
Proof. split; reflexivity. Qed.
Lemma level_count_src s :
  BufferStore_level_count (lensB s) = Z.of_nat (length (StoreB.transit s) + length (StoreB.ready s)) /\
  FleetStore_level_count (lensB s) = Z.of_nat (length (StoreB.transit s) + length (StoreB.ready s)).
Proof. unfold BufferStore_level_count, FleetStore_level_count, lensB, zl. simpl. rewrite Nat2Z.inj_add. split; reflexivity. Qed.
