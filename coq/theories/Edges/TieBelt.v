(* Tie B for the conveyors: the admission test of both belt stores (BeltStore._do_reserve_put), REGENERATED
   from /repo on every run (generated/SrcFragments.v: ContBeltStore_gate / SlotBeltStore_gate), is the
   test the timed belt model uses (TBelt.gate). *)
From Coq Require Import List ZArith Lia Bool Arith.
From FV Require Import SrcFragments TBelt.
From FV Require TieB.
Import ListNotations.
Open Scope Z_scope.

Definition glens_of (b : tb) (noacc one : bool) : glens :=
  let first := match moving b with x :: _ => x | [] => {| mid := 0; entry := 0; rem := 0; since := 0; intr := None; total := 0; dead := false |} end in
  let lastx := last (moving b) first in
  {| g_n_reservations_put := Z.of_nat (nres b); g_n_items := Z.of_nat (length (moving b));
     g_n_ready_items := Z.of_nat (length (bready b)); g_cap := Z.of_nat (bcap b);
     g_acc := bacc b; g_noacc := noacc; g_one := one;
     g_tob_last := tob (bclock b) lastx; g_tob_first := tob (bclock b) first;
     g_u := bu b; g_D := bD b; g_now := bclock b; g_entry_last := entry lastx |}.

Lemma eqb0_nat_Z a : (a =? 0)%nat = (Z.of_nat a =? 0).
Proof. destruct (Nat.eqb_spec a 0), (Z.eqb_spec (Z.of_nat a) 0); auto; lia. Qed.

Theorem gate_regenerated b noacc one :
  gate b noacc one =
  if slotted b then SlotBeltStore_gate (glens_of b noacc one) else ContBeltStore_gate (glens_of b noacc one).
Proof.
  unfold gate, SlotBeltStore_gate, ContBeltStore_gate, glens_of, occupied. cbn [g_n_reservations_put g_n_items g_n_ready_items g_cap g_acc g_noacc g_one g_tob_last g_tob_first g_u g_D g_now g_entry_last].
  rewrite !TieB.ltb_nat_Z, !eqb0_nat_Z, !Nat2Z.inj_add, !Z.geb_leb.
  (* both sides are conjunctions tested from left to right: once a test is false nothing after it is looked at *)
  destruct (Z.of_nat (nres b) =? 0); [cbn [negb andb]|destruct (slotted b); reflexivity].
  destruct (moving b) as [|f m] eqn:EM.
  - cbn [length]. change (Z.of_nat 0) with 0. rewrite Z.add_0_r. cbn [Z.eqb negb].
    destruct (_ <? _); [|destruct (slotted b); reflexivity].
    destruct (slotted b), (bacc b), (_ =? 0); reflexivity.
  - assert (Z.of_nat (length (f :: m)) =? 0 = false) as -> by (apply Z.eqb_neq; cbn [length]; lia). cbn [negb].
    destruct (_ <? _); [|destruct (slotted b); reflexivity].
    destruct (slotted b).
    + destruct noacc, one, (_ <=? _); reflexivity.
    + destruct (bacc b), noacc, (_ =? 0); try reflexivity; destruct (_ <=? _), (_ <=? _); reflexivity.
Qed.

(* the continuous conveyor's stall test, regenerated from ConveyorBelt.is_stalled (edges/continuous_conveyor.py): the belt is
   stalled exactly when an item waits at the exit -- whether or not the destination has already claimed it (fix a6eee90: the test
   used to require that no retrieval was granted, so a claimed head did not stop a non-accumulating belt) *)
Lemma cont_is_stalled_src : forall l, ContBelt_is_stalled l = negb (n_ready_items l =? 0).
Proof. intros l. unfold ContBelt_is_stalled. destruct (negb (n_ready_items l =? 0)); reflexivity. Qed.
