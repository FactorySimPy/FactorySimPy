(* C12 order under stalls.
   Uniform stalls (what a non-accumulating conveyor does): a stall interrupts every running item at
   once, a release resumes them all, and time passes only while either every item on the belt is
   stopped or none is (an item may enter in the very instant of the release, before the resume).  For the continuous
   belt store, histories of this shape deliver the items in the order in which they entered: the item
   that reaches the exit is always the oldest one on the belt. *)
From Coq Require Import List ZArith Lia Bool Arith Sorted.
From FV Require Import TBelt TBeltProofs.
Import ListNotations.
Open Scope Z_scope.

Definition stall_all (b : tb) : tb :=
  set_moving b (map (fun y => if running y then interrupt (bclock b) y else y) (moving b)).

Inductive uop :=
| UIdle (d : Z) | URsv (noacc one : bool) | UPut (i : nat) | UStall | UResume | UReady (i : nat) | UGet (i : nat).

Definition is_intr (x : mitem) : bool := match intr x with Some _ => true | None => false end.

Definition homog (l : list mitem) : bool := forallb (fun x => negb (is_intr x)) l || forallb is_intr l.

Definition ustep (b : tb) (o : uop) : option (tb * bool) :=
  match o with
  | UIdle d => if homog (moving b) then bstep b (BIdle d) else None
  | URsv n o => bstep b (BRsv n o)
  | UPut i => bstep b (BPut i)
  | UStall => Some (stall_all b, false)
  | UResume => bstep b BResume
  | UReady i => bstep b (BReady i)
  | UGet i => bstep b (BGet i)
  end.

Fixpoint urun (b : tb) (ops : list uop) : option tb :=
  match ops with [] => Some b | o :: r => match ustep b o with Some (b', _) => urun b' r | None => None end end.

(* x is at least one slot further along the belt than y *)
Definition ahead (u now : Z) (x y : mitem) : Prop := to_go now x + u <= to_go now y.

Record UInv (b : tb) : Prop := {
  u_b : BInv b;
  u_cont : slotted b = false;
  u_live : forall x, In x (moving b) -> dead x = false;
  u_order : StronglySorted (ahead (bu b) (bclock b)) (moving b);
  u_pending : nres b = 1%nat -> forall x, In x (moving b) -> bu b <= tob (bclock b) x
}.

Lemma ssorted_weaken {A} (R1 R2 : A -> A -> Prop) l :
  (forall x y, In x l -> In y l -> R1 x y -> R2 x y) -> StronglySorted R1 l -> StronglySorted R2 l.
Proof. intros K S. rewrite <- (map_id l). apply (ssorted_map R1 R2 (fun x => x)); auto. Qed.

(* everything on the belt is at least as far along as the last item *)
Lemma ahead_last u now l d x : 0 <= u -> StronglySorted (ahead u now) l -> In x l -> to_go now x <= to_go now (last l d).
Proof. intros Hu S Hx. destruct (ssorted_last _ l d x S Hx) as [<-|A]; [|unfold ahead in A]; lia. Qed.

Lemma to_go_running now x : intr x = None -> to_go now x = due x - now.
Proof. unfold to_go. intros ->. reflexivity. Qed.
Lemma to_go_intr now x : is_intr x = true -> to_go now x = rem x.
Proof. unfold to_go, is_intr. destruct (intr x); [reflexivity|discriminate]. Qed.

Lemma stall_all_inv b : BInv b -> BInv (stall_all b).
Proof. apply interrupt_some_inv. Qed.

Lemma uinit_inv c u D acc : 0 < u <= D -> UInv (binit false c u D acc).
Proof.
  intros H. constructor; simpl; auto; try (intros x []); try (intros _ x []).
  - apply binit_inv; auto.
  - constructor.
  - tauto.
Qed.

Lemma running_iff x : dead x = false -> intr x = None -> running x = true.
Proof. unfold running. intros A B. rewrite A, B. reflexivity. Qed.

Lemma ustep_bstep b o b' g : ustep b o = Some (b', g) ->
  b' = stall_all b \/
  exists o', bstep b o' = Some (b', g) /\ not_int o' = true /\ (forall d, o' = BIdle d -> homog (moving b) = true).
Proof.
  destruct o; unfold ustep; intros H; try (right; eexists; split; [exact H|split; [reflexivity|intros ? [=]]]).
  - destruct (homog (moving b)); [|discriminate]. right. eexists. split; [exact H|split; reflexivity].
  - injection H as <- _. left. reflexivity.
Qed.

Lemma ustep_binv b o b' g : BInv b -> ustep b o = Some (b', g) -> BInv b'.
Proof.
  intros B H. destruct (ustep_bstep _ _ _ _ H) as [->|(o' & H' & _)]; [apply stall_all_inv, B|exact (bstep_inv _ _ _ _ B H')].
Qed.

Lemma map_moving_uinv b f :
  UInv b -> BInv (set_moving b (map f (moving b))) ->
  (forall x, In x (moving b) ->
     dead (f x) = false /\ to_go (bclock b) (f x) = to_go (bclock b) x /\ tob (bclock b) (f x) = tob (bclock b) x) ->
  UInv (set_moving b (map f (moving b))).
Proof.
  intros [uB uC uL uO uP] B' K. constructor; simpl; auto.
  - intros y Hy. apply in_map_iff in Hy. destruct Hy as (x & <- & Hx). apply K, Hx.
  - apply (ssorted_map (ahead (bu b) (bclock b))); auto. intros x y Hx Hy. unfold ahead.
    destruct (K x Hx) as (_ & -> & _). destruct (K y Hy) as (_ & -> & _). auto.
  - intros N y Hy. apply in_map_iff in Hy. destruct Hy as (x & <- & Hx). destruct (K x Hx) as (_ & _ & ->). auto.
Qed.

Lemma ustep_inv b o b' g : UInv b -> ustep b o = Some (b', g) -> UInv b'.
Proof.
  intros U H. pose proof (ustep_binv _ _ _ _ (u_b _ U) H) as B'.
  pose proof U as [uB uC uL uO uP].
  destruct (ustep_bstep _ _ _ _ H) as [->|(o' & H' & NI & HM)].
  { (* stall: every running item stops *)
    apply map_moving_uinv; auto.
    intros x Hx. pose proof (uL x Hx) as Dx. unfold running. destruct (intr x) eqn:Ix; [auto|]. rewrite Dx.
    unfold interrupt. rewrite Ix. unfold to_go, tob, due. simpl. rewrite Ix. repeat split; auto; lia. }
  destruct (bstep_move _ _ _ _ H') as [d|noacc one|noacc one|i n|i| |x|i]; try discriminate NI.
  - (* idle *)
    specialize (HM d eq_refl).
    assert ((forall x, In x (moving b) -> intr x = None) \/ (forall x, In x (moving b) -> is_intr x = true)) as uM.
    { unfold homog in HM. apply orb_true_iff in HM. destruct HM as [HM|HM]; rewrite forallb_forall in HM; [left|right; exact HM].
      intros x Hx. specialize (HM x Hx). unfold is_intr in HM. destruct (intr x); [discriminate|reflexivity]. }
    constructor; simpl; auto.
    + destruct uM as [M|M]; (eapply ssorted_weaken; [|exact uO]); intros x y Hx Hy; unfold ahead; simpl.
      * rewrite !to_go_running by auto. lia.
      * rewrite !to_go_intr by auto. lia.
    + intros N x Hx. specialize (uP N x Hx). unfold tob in *. destruct (intr x); lia.
  - (* entry granted *)
    constructor; simpl; auto. intros _ x Hx.
    destruct (gate_open _ _ _ OPEN) as (_ & _ & G). rewrite uC in G.
    destruct (moving b) as [|f m] eqn:EM; [destruct Hx|]. specialize (G f m eq_refl). rewrite <- EM in *.
    assert (In (last (moving b) f) (moving b)) as HL by (apply last_in; rewrite EM; discriminate).
    destruct (togo_tob b x uB Hx (uL x Hx)) as (Tx & _).
    destruct (togo_tob b _ uB HL (uL _ HL)) as (Tl & _).
    assert (0 <= bu b) as Hu by (destruct (i_D _ uB); lia).
    pose proof (ahead_last (bu b) (bclock b) (moving b) f x Hu uO Hx). lia.
  - (* entry refused *)
    exact U.
  - (* put *)
    assert (n = 0%nat) by (pose proof (i_one _ uB); lia). subst n.
    constructor; simpl; auto.
    + intros x Hx. apply in_app_or in Hx. destruct Hx as [Hx|[<-|[]]]; auto.
    + apply ssorted_snoc; auto. intros x Hx. unfold ahead, to_go at 2, due. simpl.
      destruct (togo_tob b x uB Hx (uL x Hx)) as (Tx & _). specialize (uP RSV x Hx). lia.
    + intros; discriminate.
  - (* release: every stopped item resumes *)
    apply map_moving_uinv; auto.
    intros x Hx. pose proof (uL x Hx) as Dx. unfold resume. destruct (intr x) eqn:Ix; [|auto].
    rewrite Dx. unfold to_go, tob, due. simpl. rewrite Ix. repeat split; auto; lia.
  - (* arrival *)
    constructor; simpl; auto.
    + intros y Hy. apply uL, (incl_filter _ _ _ Hy).
    + apply ssorted_filter. exact uO.
    + intros N y Hy. apply (uP N), (incl_filter _ _ _ Hy).
  - (* get *)
    constructor; simpl; auto.
Qed.

Lemma urun_inv ops : forall b b', UInv b -> urun b ops = Some b' -> UInv b'.
Proof.
  induction ops as [|o r IH]; intros b b' U E; cbn [urun] in E.
  - inversion E; subst; auto.
  - destruct (ustep b o) as [[b1 g]|] eqn:ES; [|discriminate]. eapply IH; [eapply ustep_inv; eauto|exact E].
Qed.

(* an item with nothing left to travel behind another one would leave that one a negative distance to go *)
Lemma ready_is_head b i b' g :
  BInv b -> (forall x, In x (moving b) -> dead x = false) -> StronglySorted (ahead (bu b) (bclock b)) (moving b) ->
  bstep b (BReady i) = Some (b', g) -> exists x m, moving b = x :: m /\ mid x = i.
Proof.
  intros uB uL uO ST. destruct (bstep_ready _ _ _ _ ST) as (x & Hx & Mx & Ix & _ & G).
  destruct (moving b) as [|h m] eqn:EM; [destruct Hx|]. exists h, m. split; auto.
  destruct Hx as [->|Hx]; auto. exfalso.
  inversion uO as [|? ? _ FA]; subst. eapply Forall_forall in FA; [|exact Hx]. unfold ahead in FA.
  assert (In h (moving b)) as Hh by (rewrite EM; left; reflexivity).
  destruct (togo_tob b h uB Hh (uL h ltac:(left; reflexivity))) as (_ & Pos).
  rewrite (to_go_running _ x Ix) in FA. destruct (i_D _ uB). lia.
Qed.

(* C12 order under uniform stalls: on the continuous belt the item that reaches the exit is the
   oldest item on the belt -- in every history of admission tests, puts, stalls of the whole belt,
   releases, arrivals, gets, and idles during which the belt is wholly stopped or wholly moving *)
Theorem fifo_under_uniform_stalls c u D acc ops b i b' g :
  0 < u <= D -> urun (binit false c u D acc) ops = Some b -> ustep b (UReady i) = Some (b', g) ->
  exists x m, moving b = x :: m /\ mid x = i.
Proof.
  intros H E ST. pose proof (urun_inv ops _ _ (uinit_inv c u D acc H) E) as [uB uC uL uO uP].
  exact (ready_is_head _ _ _ _ uB uL uO ST).
Qed.

(* the uniform histories are histories of the belt store: a stall of the whole belt is the sequence of
   the interrupts of its running items, so every theorem about [brun] holds for [urun] as well *)
Lemma urun_binv c u D acc ops b : 0 < u <= D -> urun (binit false c u D acc) ops = Some b -> BInv b.
Proof. intros H E. exact (u_b _ (urun_inv ops _ _ (uinit_inv c u D acc H) E)). Qed.

(* Order from spacing, for ANY history of either belt store (arbitrary one-by-one interrupts, as an accumulating
   conveyor produces them): if at the instant an item is offered no item on the belt is closer than one slot to an item
   that entered before it (C13's "never overlapping"), the item offered is the oldest one on the belt (C12's order). *)
Theorem fifo_when_spaced sl c u D acc ops b i b' g :
  0 < u <= D -> brun (binit sl c u D acc) ops = Some b ->
  (forall x, In x (moving b) -> dead x = false) ->
  StronglySorted (ahead (bu b) (bclock b)) (moving b) ->
  bstep b (BReady i) = Some (b', g) ->
  exists x m, moving b = x :: m /\ mid x = i.
Proof.
  intros H E uL uO ST. destruct (reachable_inv _ _ _ _ _ _ _ H E) as (uB & _).
  exact (ready_is_head _ _ _ _ uB uL uO ST).
Qed.
