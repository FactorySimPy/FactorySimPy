(* Timed model of Buffer / BufferStore for the delay part of C11.
   A put with delay d starts a timer due at now + d (BufferStore.move_to_ready_items:
   `yield env.timeout(delay)`); when it fires the item moves to ready_items.  The kernel's
   contract enters as the legality of moves: a timer fires exactly when the clock shows its due
   time, and the clock cannot pass a pending timer (kernel theorem: an event scheduled for t is
   processed at now = t).  Model definitions first, proofs below. *)
From Coq Require Import List ZArith Lia Bool Arith.
From FV Require Import ListLemmas ListLemmas2 StoreB StoreBInv.
From FV Require StoreBSteps.
Import ListNotations.
Open Scope Z_scope.

Record tb := {
  st : store; clock : Z;
  timers : list (nat * Z);      (* (item, due time), in creation order *)
  dues : list (nat * Z)         (* ghost: every item ever put, with put time + delay *)
}.

Inductive top :=
| TApi (o : op)                       (* RPut / RGet / Get / CPut / CGet *)
| TPut (p t i : nat) (d : Z)          (* Buffer.put: delay d drawn once, >= 0 *)
| TFire (i : nat)                     (* the timer of item i expires *)
| TIdle (d : Z).                      (* simulated time advances by d > 0 *)

Definition api_ok (o : op) : bool :=
  match o with RPut _ _ | RGet _ _ | Get _ _ | CPut _ | CGet _ => true | _ => false end.

Definition is_item (i : nat) (x : nat * Z) : bool := Nat.eqb (fst x) i.

Definition tstep (b : tb) (o : top) : option (tb * out * list nat) :=
  match o with
  | TApi a =>
      if api_ok a then
        let '(s', r, ts) := step (st b) a in
        Some ({| st := s'; clock := clock b; timers := timers b; dues := dues b |}, r, ts)
      else None
  | TPut p t i d =>
      if (0 <=? d) && negb (existsb (is_item i) (dues b)) then
        let '(s', r, ts) := step (st b) (Put p t i) in
        match r with
        | OOk => Some ({| st := s'; clock := clock b; timers := timers b ++ [(i, clock b + d)];
                          dues := (i, clock b + d) :: dues b |}, r, ts)
        | _ => Some ({| st := s'; clock := clock b; timers := timers b; dues := dues b |}, r, ts)
        end
      else None
  | TFire i =>
      match find (is_item i) (timers b) with
      | Some (_, due) =>
          if due =? clock b then
            let '(s', r, ts) := step (st b) (Ready i) in
            match r with
            | OOk => Some ({| st := s'; clock := clock b; timers := remove_first (is_item i) (timers b);
                              dues := dues b |}, r, ts)
            | _ => None
            end
          else None
      | None => None
      end
  | TIdle d =>
      if (0 <? d) && forallb (fun x => clock b + d <=? snd x) (timers b) then
        Some ({| st := st b; clock := clock b + d; timers := timers b; dues := dues b |}, OOk, [])
      else None
  end.

Definition tinit (m : mode) (c : nat) : tb :=
  {| st := init KBuffer m c; clock := 0; timers := []; dues := [] |}.

(* a legal timed history: every move is legal *)
Fixpoint trun (b : tb) (ops : list top) : option tb :=
  match ops with
  | [] => Some b
  | o :: r => match tstep b o with Some (b', _, _) => trun b' r | None => None end
  end.

Fixpoint trun_trace (b : tb) (ops : list top) : list (option (out * list nat * tb)) :=
  match ops with
  | [] => []
  | o :: r => match tstep b o with
              | Some (b', x, ts) => Some (x, ts, b') :: trun_trace b' r
              | None => [None]
              end
  end.

(* ------------------------------------------------------------------ proofs *)

Definition TInv (b : tb) : Prop :=
  Inv (st b) /\
  map fst (timers b) = transit (st b) /\
  (forall i due, In (i, due) (timers b) -> clock b <= due /\ In (i, due) (dues b)) /\
  (forall i, In i (ready (st b)) -> exists due, In (i, due) (dues b) /\ due <= clock b) /\
  NoDup (map fst (dues b)) /\
  (forall i, In i (contents (st b)) -> In i (map fst (dues b))).

Lemma tinit_inv m c : TInv (tinit m c).
Proof.
  unfold TInv, tinit; simpl. repeat split; try (intros; tauto); try constructor; try apply init_inv.
Qed.

Lemma step_eq_inv s o s' r ts : Inv s -> fresh_op s o -> step s o = (s', r, ts) -> Inv s'.
Proof. intros HI HF E. pose proof (step_inv s o HI HF) as H. unfold step_st in H. rewrite E in H. exact H. Qed.

Lemma step_eq_contents s o s' r ts x :
  step s o = (s', r, ts) -> In x (contents s') -> In x (contents s) \/ exists p t, o = Put p t x.
Proof. intros E. pose proof (step_contents_incl s o x) as H. unfold step_st in H. rewrite E in H. exact H. Qed.

Lemma api_fresh s o : api_ok o = true -> fresh_op s o.
Proof. destruct o; simpl; auto; discriminate. Qed.

Lemma step_fields s o s' r ts : step s o = (s', r, ts) ->
  (s' = s /\ exists e, r = OErr e) \/
  match o with
  | Put _ _ i => ready s' = ready s /\ transit s' = match r with OOk => transit s ++ [i] | _ => transit s end
  | Ready i => In i (transit s) /\ transit s' = remove_first (Nat.eqb i) (transit s) /\ (r = OOk -> ready s' = ready s ++ [i])
  | _ => transit s' = transit s /\ forall j, In j (ready s') -> In j (ready s)
  end.
Proof.
  intros E. pose proof (StoreBSteps.step_shape s o) as H. rewrite E in H.
  inversion H as [e|s1 r1 k s2 ts1 EF T]; subst; [left; eauto|right].
  apply (StoreBSteps.trigs_lift (fun z => transit z = transit s1 /\ ready z = ready s1)) in T; auto.
  - destruct T as (-> & ->). destruct EF; simpl; auto; try discriminate.
    + split; auto. intros j. apply remove_first_incl.
    + split; auto. apply existsb_eqb_In, INT.
    + split; [apply existsb_eqb_In, INT|]. split; [reflexivity|discriminate].
  - intros z (<- & <-). destruct (trig_put_fields z) as (_ & A & B & _). auto.
  - intros z z' ts0 G (<- & <-). destruct (trig_get_fields _ _ _ G) as (_ & A & B & _). auto.
Qed.

Lemma put_shape s p t i s' r ts :
  step s (Put p t i) = (s', r, ts) ->
  ready s' = ready s /\ (r = OOk -> transit s' = transit s ++ [i]) /\ (r <> OOk -> transit s' = transit s).
Proof.
  intros E. destruct (step_fields _ _ _ _ _ E) as [(-> & e & ->)|(-> & ->)]; repeat split; auto; try congruence.
  all: destruct r; congruence.
Qed.

Lemma api_shape s o s' r ts :
  api_ok o = true -> step s o = (s', r, ts) ->
  transit s' = transit s /\ (forall i, In i (ready s') -> In i (ready s)).
Proof.
  intros A E. destruct (step_fields _ _ _ _ _ E) as [(-> & _)|H]; [auto|]. destruct o; try discriminate; exact H.
Qed.

Lemma fire_shape s i s' ts :
  step s (Ready i) = (s', OOk, ts) ->
  In i (transit s) /\ transit s' = remove_first (Nat.eqb i) (transit s) /\ ready s' = ready s ++ [i].
Proof.
  intros E. destruct (step_fields _ _ _ _ _ E) as [(_ & e & [=])|(A & B & C)]. auto.
Qed.

Lemma existsb_is_item_false i l : existsb (is_item i) l = false -> ~ In i (map fst l).
Proof.
  intros E Hi. apply in_map_iff in Hi as (x & Hx & Hin).
  assert (existsb (is_item i) l = true) as C.
  { apply existsb_exists. exists x. split; auto. unfold is_item. apply Nat.eqb_eq. auto. }
  congruence.
Qed.

Lemma nodup_fst_inj (l : list (nat * Z)) i d d' :
  NoDup (map fst l) -> In (i, d) l -> In (i, d') l -> d = d'.
Proof.
  induction l as [|[j e] l IH]; simpl; [tauto|]. intros ND [H|H] [H'|H']; inversion ND; subst.
  - congruence.
  - inversion H; subst. exfalso. apply H2. apply in_map_iff. exists (i, d'). auto.
  - inversion H'; subst. exfalso. apply H2. apply in_map_iff. exists (i, d). auto.
  - eauto.
Qed.

Lemma map_fst_remove_first i (l : list (nat * Z)) : map fst (remove_first (is_item i) l) = remove_first (Nat.eqb i) (map fst l).
Proof.
  induction l as [|[j e] l IH]; simpl; [reflexivity|]. unfold is_item at 1. simpl. rewrite Nat.eqb_sym.
  destruct (i =? j)%nat; simpl; congruence.
Qed.

Lemma tstep_spec b o b' r ts : tstep b o = Some (b', r, ts) ->
  match o with
  | TApi a =>
      api_ok a = true /\ exists s', step (st b) a = (s', r, ts) /\
      b' = {| st := s'; clock := clock b; timers := timers b; dues := dues b |}
  | TPut p t i d =>
      0 <= d /\ ~ In i (map fst (dues b)) /\ exists s', step (st b) (Put p t i) = (s', r, ts) /\
      b' = match r with
           | OOk => {| st := s'; clock := clock b; timers := timers b ++ [(i, clock b + d)]; dues := (i, clock b + d) :: dues b |}
           | _ => {| st := s'; clock := clock b; timers := timers b; dues := dues b |}
           end
  | TFire i =>
      In (i, clock b) (timers b) /\ r = OOk /\ exists s', step (st b) (Ready i) = (s', OOk, ts) /\
      b' = {| st := s'; clock := clock b; timers := remove_first (is_item i) (timers b); dues := dues b |}
  | TIdle d =>
      0 < d /\ (forall x, In x (timers b) -> clock b + d <= snd x) /\
      b' = {| st := st b; clock := clock b + d; timers := timers b; dues := dues b |}
  end.
Proof.
  destruct o as [a|p t i d|i|d]; unfold tstep.
  - destruct (api_ok a); [|discriminate]. destruct (step (st b) a) as [[s' r0] ts0]. intros [= <- <- <-]. eauto.
  - destruct (Z.leb_spec 0 d) as [G1|]; [|discriminate]. destruct (existsb _ (dues b)) eqn:G2; [discriminate|].
    destruct (step (st b) (Put p t i)) as [[s' r0] ts0]. intros H.
    split; [exact G1|]. split; [exact (existsb_is_item_false _ _ G2)|]. exists s'. destruct r0; injection H as <- <- <-; auto.
  - destruct (find (is_item i) (timers b)) as [[j due]|] eqn:G1; [|discriminate]. apply find_some in G1 as (Hin & <-%Nat.eqb_eq).
    destruct (Z.eqb_spec due (clock b)) as [->|]; [|discriminate].
    destruct (step (st b) (Ready (fst (j, clock b)))) as [[s' r0] ts0]. destruct r0; try discriminate. intros [= <- <- <-]. eauto.
  - destruct (Z.ltb_spec 0 d) as [G1|]; [|discriminate]. destruct (forallb _ _) eqn:G2; [|discriminate]. intros [= <- _ _].
    split; [exact G1|]. split; [|reflexivity]. intros x Hx. rewrite forallb_forall in G2. apply Z.leb_le, (G2 x Hx).
Qed.

Ltac tinv_split := unfold TInv; simpl; refine (conj _ (conj _ (conj _ (conj _ (conj _ _))))).

Lemma with_st_tinv b s' :
  TInv b -> Inv s' -> transit s' = transit (st b) -> (forall i, In i (ready s') -> In i (ready (st b))) ->
  TInv {| st := s'; clock := clock b; timers := timers b; dues := dues b |}.
Proof.
  intros (_ & TT & T1 & T3 & T4 & T5) HI' ET ER. tinv_split; auto; [congruence|].
  intros i Hi. apply T5. unfold contents in *. rewrite ET in Hi. apply in_app_or in Hi as [Hi|Hi]; apply in_or_app; auto.
Qed.

Lemma step_tinv b o b' r ts : TInv b -> tstep b o = Some (b', r, ts) -> TInv b'.
Proof.
  intros TI E. pose proof TI as (HI & TT & T1 & T3 & T4 & T5). apply tstep_spec in E. destruct o as [a|p t i d|i|d].
  - (* API call *)
    destruct E as (EA & s' & ES & ->). destruct (api_shape _ _ _ _ _ EA ES) as (ET & ER).
    apply with_st_tinv; auto. exact (step_eq_inv _ _ _ _ _ HI (api_fresh _ _ EA) ES).
  - (* Put with delay d *)
    destruct E as (ED & NI & s' & ES & ->). destruct (put_shape _ _ _ _ _ _ _ ES) as (ER & EOK & ENO).
    assert (Inv s') as HI' by (apply (step_eq_inv _ _ _ _ _ HI) in ES; [exact ES|intros Hi; apply NI, T5, Hi]).
    assert (r <> OOk -> TInv {| st := s'; clock := clock b; timers := timers b; dues := dues b |}) as FAIL.
    { intros N. apply with_st_tinv; auto. rewrite ER. auto. }
    destruct r; try (apply FAIL; discriminate).
    specialize (EOK eq_refl). tinv_split; auto.
    + rewrite map_app, TT, EOK. reflexivity.
    + intros j due H. apply in_app_or in H as [H|[[= <- <-]|[]]]; [destruct (T1 _ _ H); auto|]. split; [lia|left; reflexivity].
    + intros j Hj. rewrite ER in Hj. destruct (T3 j Hj) as (due & Hd & Hl). exists due. split; auto.
    + constructor; auto.
    + intros j Hj. unfold contents in Hj. rewrite EOK, ER, <- app_assoc in Hj.
      apply in_app_or in Hj as [Hj|[<-|Hj]]; [right|left; reflexivity|right]; apply T5, in_or_app; auto.
  - (* a timer fires *)
    destruct E as (Hin & -> & s' & ES & ->). destruct (fire_shape _ _ _ _ ES) as (Hit & ET & ER).
    tinv_split.
    + exact (step_eq_inv _ (Ready i) _ _ _ HI I ES).
    + rewrite ET, <- TT. apply map_fst_remove_first.
    + intros j due H. apply T1. exact (remove_first_incl _ _ _ H).
    + intros j Hj. rewrite ER in Hj. apply in_app_or in Hj as [Hj|[<-|[]]]; [auto|].
      exists (clock b). split; [apply (T1 _ _ Hin)|lia].
    + exact T4.
    + intros j Hj. apply T5. unfold contents in *. rewrite ET, ER in Hj.
      apply in_app_or in Hj as [Hj|Hj]; [apply remove_first_incl in Hj; apply in_or_app; auto|].
      apply in_app_or in Hj as [Hj|[<-|[]]]; apply in_or_app; auto.
  - (* time advances *)
    destruct E as (ED & EA & ->). tinv_split; auto.
    + intros j due H. split; [apply (EA _ H)|apply (T1 _ _ H)].
    + intros j Hj. destruct (T3 j Hj) as (due & Hd & Hl). exists due. split; auto. lia.
Qed.

Lemma trun_inv ops : forall b b', TInv b -> trun b ops = Some b' -> TInv b'.
Proof.
  induction ops as [|o ops IH]; simpl; intros b b' H E.
  - inversion E; subst; auto.
  - destruct (tstep b o) as [[[b1 r] ts]|] eqn:ES; [|discriminate].
    eapply IH; [|exact E]. eapply step_tinv; eauto.
Qed.

(* ------------------------------------------------------------------ the delay theorems (C11) *)

(* in every legal timed history: an item that is ready (hence retrievable) was put at least its
   delay ago *)
Theorem ready_not_before_due m c ops b i :
  trun (tinit m c) ops = Some b -> In i (ready (st b)) ->
  exists due, In (i, due) (dues b) /\ due <= clock b.
Proof.
  intros E Hi. pose proof (trun_inv ops _ _ (tinit_inv m c) E) as (_ & _ & _ & T3 & _). auto.
Qed.

Lemma pending_timer b i : TInv b -> In i (transit (st b)) -> exists due, In (i, due) (timers b) /\ clock b <= due /\ In (i, due) (dues b).
Proof.
  intros (_ & TT & T1 & _) Hi. rewrite <- TT in Hi. apply in_map_iff in Hi as ([j due] & <- & Ht).
  exists due. split; [exact Ht|apply (T1 _ _ Ht)].
Qed.

(* ... and once the clock has passed put time + delay the item is no longer in transit: it is
   ready or has been retrieved *)
Theorem due_passed_not_in_transit m c ops b i due :
  trun (tinit m c) ops = Some b -> In (i, due) (dues b) -> due < clock b -> ~ In i (transit (st b)).
Proof.
  intros E Hd Hl Hi. pose proof (trun_inv ops _ _ (tinit_inv m c) E) as TI.
  destruct (pending_timer _ _ TI Hi) as (due' & _ & A & C). destruct TI as (_ & _ & _ & _ & T4 & _).
  pose proof (nodup_fst_inj _ _ _ _ T4 Hd C). lia.
Qed.

(* at the instant put time + delay itself the timer fires before the clock may move on *)
Theorem due_now_fires_before_time_passes m c ops b i due d b' r ts :
  trun (tinit m c) ops = Some b -> In (i, due) (dues b) -> due <= clock b ->
  tstep b (TIdle d) = Some (b', r, ts) -> ~ In i (transit (st b)).
Proof.
  intros E Hd Hl EI Hi. pose proof (trun_inv ops _ _ (tinit_inv m c) E) as TI.
  destruct (pending_timer _ _ TI Hi) as (due' & Ht & _ & C). destruct TI as (_ & _ & _ & _ & T4 & _).
  pose proof (nodup_fst_inj _ _ _ _ T4 Hd C). subst due'.
  destruct (tstep_spec _ _ _ _ _ EI) as (ED & EA & _). specialize (EA _ Ht). simpl in EA. lia.
Qed.

(* a get returns a ready item (StoreBInv.granted_get_ok), so together: never retrievable before
   put time + delay, retrievable from then on *)
Theorem get_returns_due_item m c ops b p t :
  trun (tinit m c) ops = Some b -> existsb (owns2 p t) (getres (st b)) = true ->
  exists it due, snd (fst (step (st b) (Get p t))) = OItem it /\ In (it, due) (dues b) /\ due <= clock b.
Proof.
  intros E EO. pose proof (trun_inv ops _ _ (tinit_inv m c) E) as (HI & _ & _ & T3 & _).
  destruct (granted_get_ok _ _ _ HI EO) as (i & r & it & _ & _ & Hin & K & _).
  destruct (T3 _ Hin) as (due & A & B). exists it, due. auto.
Qed.
