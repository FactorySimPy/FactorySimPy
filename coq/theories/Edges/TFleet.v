(* Timed model of Fleet / FleetStore for C14 (fleet delivers whole batches after a full round trip).
   The activation process waits for any_of(timeout(delay), activate_fleet); when it fires and items
   are waiting it sends the items that are not yet travelling on a trip of 2 * transit_delay and
   re-arms.  As in TBuffer, the kernel's contract is the legality of the moves: the activation runs
   when its timeout is due or the capacity trigger has fired, a trip arrives exactly when due, and
   the clock passes neither a pending deadline nor a pending arrival nor a fired trigger. *)
From Coq Require Import List ZArith Lia Bool Arith.
From FV Require Import ListLemmas ListLemmas2 StoreB StoreBInv.
From FV Require TBuffer.
Import ListNotations.
Open Scope Z_scope.

Record tf := {
  fs : store; fclock : Z; fdelay : Z; ftransit : Z;
  deadline : Z;                       (* due time of the activation process's current timeout *)
  act : bool;                         (* activate_fleet triggered and not yet consumed *)
  intransit : list nat;               (* in_transit_items *)
  trips : list (list nat * Z);        (* (batch in loading order, arrival time), oldest first *)
  loads : list (nat * Z);             (* ghost: item, time of its put *)
  avail : list (nat * Z)              (* ghost: item, time it became available *)
}.

Inductive fop :=
| FApi (o : op)
| FLoad (p t i : nat)      (* Fleet.put *)
| FActivate                (* the any_of of fleet_activation_process fires *)
| FArrive                  (* the oldest trip arrives *)
| FIdle (d : Z).

Definition api_ok := TBuffer.api_ok.

Definition with_store (b : tf) (s : store) : tf :=
  {| fs := s; fclock := fclock b; fdelay := fdelay b; ftransit := ftransit b; deadline := deadline b; act := act b;
     intransit := intransit b; trips := trips b; loads := loads b; avail := avail b |}.

(* move the items of a batch to ready, one after the other; None if any step is refused *)
Fixpoint arrive (s : store) (batch : list nat) : option (store * list nat) :=
  match batch with
  | [] => Some (s, [])
  | i :: r => let '(s', res, ts) := step s (Ready i) in
              match res with
              | OOk => match arrive s' r with Some (s'', ts') => Some (s'', ts ++ ts') | None => None end
              | _ => None
              end
  end.

Definition fstep (b : tf) (o : fop) : option (tf * out * list nat) :=
  match o with
  | FApi a =>
      if api_ok a then let '(s', r, ts) := step (fs b) a in Some (with_store b s', r, ts) else None
  | FLoad p t i =>
      if existsb (fun x => Nat.eqb (fst x) i) (loads b) then None else
      let '(s', r, ts) := step (fs b) (Put p t i) in
      match r with
      | OOk =>
          let full := (length (transit s') + length (ready s') =? cap s')%nat in
          Some ({| fs := s'; fclock := fclock b; fdelay := fdelay b; ftransit := ftransit b; deadline := deadline b;
                   act := act b || full; intransit := intransit b; trips := trips b;
                   loads := (i, fclock b) :: loads b; avail := avail b |}, r, ts)
      | _ => Some (with_store b s', r, ts)
      end
  | FActivate =>
      if (deadline b =? fclock b) || act b then
        match transit (fs b) with
        | [] => Some ({| fs := fs b; fclock := fclock b; fdelay := fdelay b; ftransit := ftransit b;
                         deadline := fclock b + fdelay b; act := act b; intransit := intransit b; trips := trips b;
                         loads := loads b; avail := avail b |}, OOk, [])
        | _ =>
            let batch := filter (fun it => negb (existsb (Nat.eqb it) (intransit b))) (transit (fs b)) in
            Some ({| fs := fs b; fclock := fclock b; fdelay := fdelay b; ftransit := ftransit b;
                     deadline := fclock b + fdelay b; act := false;
                     intransit := intransit b ++ batch;
                     trips := match batch with [] => trips b | _ => trips b ++ [(batch, fclock b + 2 * ftransit b)] end;
                     loads := loads b; avail := avail b |}, OOk, [])
        end
      else None
  | FArrive =>
      match trips b with
      | (batch, due) :: rest =>
          if due =? fclock b then
            match arrive (fs b) batch with
            | Some (s', ts) =>
                Some ({| fs := s'; fclock := fclock b; fdelay := fdelay b; ftransit := ftransit b; deadline := deadline b;
                         act := act b; intransit := filter (fun t => negb (existsb (Nat.eqb t) batch)) (intransit b);
                         trips := rest; loads := loads b;
                         avail := map (fun i => (i, fclock b)) batch ++ avail b |}, OOk, ts)
            | None => None
            end
          else None
      | [] => None
      end
  | FIdle d =>
      if (0 <? d) && (fclock b + d <=? deadline b) && negb (act b) &&
         forallb (fun x => fclock b + d <=? snd x) (trips b) then
        Some ({| fs := fs b; fclock := fclock b + d; fdelay := fdelay b; ftransit := ftransit b; deadline := deadline b;
                 act := act b; intransit := intransit b; trips := trips b; loads := loads b; avail := avail b |}, OOk, [])
      else None
  end.

Definition finit (c : nat) (delay transit : Z) : tf :=
  {| fs := init KFleet FIFO c; fclock := 0; fdelay := delay; ftransit := transit; deadline := delay; act := false;
     intransit := []; trips := []; loads := []; avail := [] |}.

Fixpoint frun (b : tf) (ops : list fop) : option tf :=
  match ops with [] => Some b | o :: r => match fstep b o with Some (b', _, _) => frun b' r | None => None end end.

(* ------------------------------------------------------------------ proofs *)

Definition load_time (b : tf) (i : nat) (t : Z) : Prop := In (i, t) (loads b).

(* the timing invariant behind C14 *)
Definition FInv (b : tf) : Prop :=
  0 <= fdelay b /\ 0 <= ftransit b /\
  fclock b <= deadline b <= fclock b + fdelay b /\
  (* every loaded item that is neither travelling nor delivered will leave with the next activation *)
  (forall i t, In (i, t) (loads b) -> In i (transit (fs b)) -> ~ In i (intransit b) -> deadline b <= t + fdelay b) /\
  (* every trip arrives within delay + round trip of each of its items' load time, and not in the past *)
  (forall batch due, In (batch, due) (trips b) -> fclock b <= due /\
     forall i, In i batch -> exists t, In (i, t) (loads b) /\ t + 2 * ftransit b <= due /\ due <= t + fdelay b + 2 * ftransit b) /\
  (* every delivered item became available within the bound, and not before a full round trip *)
  (forall i a, In (i, a) (avail b) -> exists t, In (i, t) (loads b) /\ t + 2 * ftransit b <= a /\ a <= t + fdelay b + 2 * ftransit b) /\
  (forall i t, In (i, t) (loads b) -> t <= fclock b) /\
  (forall i, In i (contents (fs b)) -> exists t, In (i, t) (loads b)) /\
  Inv (fs b).

Lemma finit_inv c d tr : 0 <= d -> 0 <= tr -> FInv (finit c d tr).
Proof.
  intros Hd Ht. unfold FInv, finit; simpl. repeat split; try lia; try (intros; tauto); try apply init_inv.
Qed.

Lemma arrive_spec batch : forall s s' ts, arrive s batch = Some (s', ts) ->
  ready s' = ready s ++ batch /\
  (forall x, In x (transit s') -> In x (transit s)) /\
  (forall x, In x (transit s) -> ~ In x batch -> In x (transit s')) /\
  (forall x, In x (contents s') -> In x (contents s)) /\
  (Inv s -> Inv s' /\ forall i, In i batch -> ~ In i (transit s')).
Proof.
  induction batch as [|i r IH]; intros s s' ts E; cbn [arrive] in E.
  - injection E as <- _. rewrite app_nil_r. do 4 (split; [auto|]). intros HI. split; [exact HI|intros i []].
  - destruct (step s (Ready i)) as [[s1 res] ts1] eqn:E1. destruct res; try discriminate.
    destruct (arrive s1 r) as [[s2 ts2]|] eqn:E2; [|discriminate]. injection E as <- _.
    destruct (IH _ _ _ E2) as (R & T1 & T2 & C & IV). destruct (TBuffer.fire_shape _ _ _ _ E1) as (_ & T & R1).
    split; [rewrite R, R1, <- app_assoc; reflexivity|].
    split. { intros x Hx. apply T1 in Hx. rewrite T in Hx. exact (remove_first_incl _ _ _ Hx). }
    split. { intros x Hx NI. apply T2; [|intros Hr; apply NI; right; exact Hr].
             rewrite T. apply in_remove_first_neq; [exact Hx|]. intros ->. apply NI. left; reflexivity. }
    split. { intros x Hx. destruct (TBuffer.step_eq_contents _ _ _ _ _ _ E1 (C _ Hx)) as [?|(? & ? & ?)]; [auto|discriminate]. }
    intros HI. destruct (IV (TBuffer.step_eq_inv _ (Ready i) _ _ _ HI I E1)) as (I2 & N2). split; [exact I2|].
    (* the item made ready first is out of transit at once, since transit holds it only once *)
    intros j [<-|Hj] Hin; [|exact (N2 j Hj Hin)]. apply T1 in Hin. rewrite T in Hin. revert Hin.
    apply remove_first_eqb_not_in. destruct HI as (_ & ND & _). exact (NoDup_app_l _ _ ND).
Qed.

(* an arrival only removes its batch from transit *)
Lemma arrive_transit batch : forall s s' ts, arrive s batch = Some (s', ts) -> forall x, In x (transit s') -> In x (transit s).
Proof. intros s s' ts E. apply (arrive_spec _ _ _ _ E). Qed.

Lemma fstep_spec b o b' r ts : fstep b o = Some (b', r, ts) ->
  match o with
  | FApi a => api_ok a = true /\ exists s', step (fs b) a = (s', r, ts) /\ b' = with_store b s'
  | FLoad p t i =>
      ~ In i (map fst (loads b)) /\ exists s', step (fs b) (Put p t i) = (s', r, ts) /\
      b' = match r with
           | OOk => {| fs := s'; fclock := fclock b; fdelay := fdelay b; ftransit := ftransit b; deadline := deadline b;
                       act := act b || (length (transit s') + length (ready s') =? cap s')%nat; intransit := intransit b;
                       trips := trips b; loads := (i, fclock b) :: loads b; avail := avail b |}
           | _ => with_store b s'
           end
  | FActivate =>
      (deadline b = fclock b \/ act b = true) /\
      exists batch, batch = filter (fun it => negb (existsb (Nat.eqb it) (intransit b))) (transit (fs b)) /\
      b' = {| fs := fs b; fclock := fclock b; fdelay := fdelay b; ftransit := ftransit b; deadline := fclock b + fdelay b;
              act := match transit (fs b) with [] => act b | _ => false end; intransit := intransit b ++ batch;
              trips := match batch with [] => trips b | _ => trips b ++ [(batch, fclock b + 2 * ftransit b)] end;
              loads := loads b; avail := avail b |}
  | FArrive =>
      exists batch rest s', trips b = (batch, fclock b) :: rest /\ arrive (fs b) batch = Some (s', ts) /\
      b' = {| fs := s'; fclock := fclock b; fdelay := fdelay b; ftransit := ftransit b; deadline := deadline b; act := act b;
              intransit := filter (fun t => negb (existsb (Nat.eqb t) batch)) (intransit b); trips := rest; loads := loads b;
              avail := map (fun i => (i, fclock b)) batch ++ avail b |}
  | FIdle d =>
      0 < d /\ fclock b + d <= deadline b /\ act b = false /\ (forall bt due, In (bt, due) (trips b) -> fclock b + d <= due) /\
      b' = {| fs := fs b; fclock := fclock b + d; fdelay := fdelay b; ftransit := ftransit b; deadline := deadline b;
              act := act b; intransit := intransit b; trips := trips b; loads := loads b; avail := avail b |}
  end.
Proof.
  destruct o as [a|p t i| | |d]; unfold fstep.
  - destruct (api_ok a); [|discriminate]. destruct (step (fs b) a) as [[s' r0] ts0]. intros [= <- <- <-]. eauto.
  - destruct (existsb _ (loads b)) eqn:G; [discriminate|]. destruct (step (fs b) (Put p t i)) as [[s' r0] ts0]. intros H.
    split; [exact (TBuffer.existsb_is_item_false _ _ G)|]. exists s'. destruct r0; injection H as <- <- <-; auto.
  - destruct (_ || _) eqn:G; [|discriminate]. intros H. split.
    { apply orb_true_iff in G as [G|G]; [left; apply Z.eqb_eq, G|right; exact G]. }
    eexists. split; [reflexivity|]. destruct (transit (fs b)); injection H as <- _ _; [cbn [filter]; rewrite app_nil_r|]; reflexivity.
  - destruct (trips b) as [|[batch due] rest]; [discriminate|]. destruct (Z.eqb_spec due (fclock b)) as [->|]; [|discriminate].
    destruct (arrive (fs b) batch) as [[s' ts']|] eqn:EA; [|discriminate]. intros [= <- _ <-]. exists batch, rest, s'. auto.
  - destruct (Z.ltb_spec 0 d) as [G1|]; [|discriminate]. destruct (Z.leb_spec (fclock b + d) (deadline b)) as [G2|]; [|discriminate].
    destruct (act b); [discriminate|]. simpl. destruct (forallb _ _) eqn:G3; [|discriminate]. intros [= <- _ _].
    repeat split; auto. intros bt due H. rewrite forallb_forall in G3. apply Z.leb_le, (G3 _ H).
Qed.

Ltac finv_split := unfold FInv, with_store; cbn [fs fclock fdelay ftransit deadline act intransit trips loads avail]; refine (conj _ (conj _ (conj _ (conj _ (conj _ (conj _ (conj _ (conj _ _)))))))).

Lemma with_store_inv b s' :
  FInv b -> Inv s' -> transit s' = transit (fs b) -> (forall x, In x (ready s') -> In x (ready (fs b))) -> FInv (with_store b s').
Proof.
  intros (Hd & Htr & Hdl & IA & IB & IC & IL & ID & _) HI' ET ER. finv_split; auto; rewrite ?ET; auto.
  intros x Hx. apply ID. unfold contents in *. rewrite ET in Hx. apply in_app_or in Hx as [Hx|Hx]; apply in_or_app; auto.
Qed.

Lemma in_waiting seen l x : In x (filter (fun it => negb (existsb (Nat.eqb it) seen)) l) <-> In x l /\ ~ In x seen.
Proof. rewrite filter_In, negb_true_iff, existsb_eqb_nIn. reflexivity. Qed.

Lemma fstep_inv b o b' r ts : FInv b -> fstep b o = Some (b', r, ts) -> FInv b'.
Proof.
  intros FI E. pose proof FI as (Hd & Htr & Hdl & IA & IB & IC & IL & ID & HI).
  apply fstep_spec in E. destruct o as [a|p t i| | |d].
  - (* API *)
    destruct E as (A & s' & ES & ->). destruct (TBuffer.api_shape _ _ _ _ _ A ES) as (ET & ER).
    apply with_store_inv; auto. exact (TBuffer.step_eq_inv _ _ _ _ _ HI (TBuffer.api_fresh _ _ A) ES).
  - (* load *)
    destruct E as (FRESH & s' & ES & ->). destruct (TBuffer.put_shape _ _ _ _ _ _ _ ES) as (RE & TOK & TNO).
    assert (Inv s') as HI'.
    { apply (TBuffer.step_eq_inv _ _ _ _ _ HI) in ES; [exact ES|]. intros Hc. destruct (ID _ Hc) as (t0 & H0). exact (FRESH (in_map fst _ _ H0)). }
    assert (r <> OOk -> FInv (with_store b s')) as FAIL.
    { intros N. apply with_store_inv; auto. rewrite RE. auto. }
    destruct r; try (apply FAIL; discriminate). specialize (TOK eq_refl).
    finv_split; auto; try lia; rewrite ?TOK.
    + intros j t0 [H|H] HT HN.
      * inversion H; subst. lia.
      * apply in_app_or in HT as [HT|[<-|[]]]; [apply (IA _ _ H HT HN)|]. destruct (FRESH (in_map fst _ _ H)).
    + intros batch due H. destruct (IB _ _ H) as (K1 & K2). split; auto.
      intros j Hj. destruct (K2 j Hj) as (t0 & A1 & A2). exists t0. split; [right|]; assumption.
    + intros j a Hj. destruct (IC _ _ Hj) as (t0 & A1 & A2). exists t0. split; [right|]; assumption.
    + intros j t0 [H|H]; [inversion H; subst; lia|eauto].
    + intros j Hj. unfold contents in Hj. rewrite TOK, RE, <- app_assoc in Hj. apply in_app_or in Hj as [Hj|[<-|Hj]].
      2:{ exists (fclock b). left; reflexivity. }
      all: destruct (ID j) as (t0 & H0); [apply in_or_app; auto|]; exists t0; right; exact H0.
  - (* activation: every item held and not yet travelling leaves now *)
    destruct E as (_ & batch & EB & ->). finv_split; auto; try lia.
    + intros i t0 _ HT HN. destruct HN. apply in_or_app. destruct (in_dec Nat.eq_dec i (intransit b)); [auto|].
      right. rewrite EB. apply in_waiting. auto.
    + intros bt due H.
      assert (In (bt, due) (trips b) \/ (bt = batch /\ due = fclock b + 2 * ftransit b)) as [H'|(-> & ->)].
      { destruct batch; auto. apply in_app_or in H as [H|[H|[]]]; auto. inversion H; subst. auto. }
      * apply (IB _ _ H').
      * split; [lia|]. intros j Hj. rewrite EB in Hj. apply in_waiting in Hj as (HT & HN).
        destruct (ID j) as (t0 & H0); [apply in_or_app; auto|].
        exists t0. pose proof (IA _ _ H0 HT HN). pose proof (IL _ _ H0). repeat split; auto; lia.
  - (* arrival *)
    destruct E as (batch & rest & s' & ETP & EA & ->).
    destruct (arrive_spec _ _ _ _ EA) as (_ & AT & _ & AC & IV). destruct (IV HI) as (HI' & GONE).
    rewrite ETP in IB. finv_split; auto; try lia.
    + intros i t0 H HT HN. apply (IA _ _ H (AT _ HT)). intros Hin. apply HN, in_waiting. split; auto.
      intros Hb. exact (GONE _ Hb HT).
    + intros bt due H. apply (IB bt due). right. exact H.
    + intros i a Hi. apply in_app_or in Hi as [Hi|Hi]; [|apply IC; auto].
      apply in_map_iff in Hi as (j & [= <- <-] & Hin). apply (IB batch (fclock b)); [left; reflexivity|exact Hin].
  - (* time passes *)
    destruct E as (ED & EL & _ & EF & ->). finv_split; auto; try lia.
    + intros bt due H. destruct (IB _ _ H) as (K1 & K2). split; auto. apply (EF _ _ H).
    + intros i t0 H. specialize (IL _ _ H). lia.
Qed.

Lemma fstep_params b o b' r ts : fstep b o = Some (b', r, ts) -> fdelay b' = fdelay b /\ ftransit b' = ftransit b.
Proof.
  intros E. apply fstep_spec in E.
  destruct o; [destruct E as (_ & s' & _ & ->)|destruct E as (_ & s' & _ & ->); destruct r|destruct E as (_ & batch & _ & ->)|
               destruct E as (batch & rest & s' & _ & _ & ->)|destruct E as (_ & _ & _ & _ & ->)]; auto.
Qed.

Lemma frun_inv ops : forall b b', FInv b -> frun b ops = Some b' ->
  FInv b' /\ fdelay b' = fdelay b /\ ftransit b' = ftransit b.
Proof.
  induction ops as [|o ops IH]; simpl; intros b b' H E.
  - inversion E; subst; auto.
  - destruct (fstep b o) as [[[b1 r] ts]|] eqn:ES; [|discriminate].
    destruct (IH _ _ (fstep_inv _ _ _ _ _ H ES) E) as (A & B & C).
    destruct (fstep_params _ _ _ _ _ ES) as (D1 & D2). split; auto. split; congruence.
Qed.

(* ---------------------------------------------------------------- the theorems of C14 *)

(* the fleet departs only when its waiting delay expires or the held items reached the capacity *)
Theorem fleet_departure_condition b b' r ts :
  fstep b FActivate = Some (b', r, ts) -> deadline b = fclock b \/ act b = true.
Proof. intros H. apply (fstep_spec _ _ _ _ _ H). Qed.

(* the capacity trigger is set exactly by the load that fills the fleet *)
Theorem fleet_capacity_trigger b p t i b' ts :
  fstep b (FLoad p t i) = Some (b', OOk, ts) ->
  act b' = act b || (length (transit (fs b')) + length (ready (fs b')) =? cap (fs b'))%nat.
Proof. intros H. destruct (fstep_spec _ _ _ _ _ H) as (_ & s' & _ & ->). reflexivity. Qed.

(* what departs: exactly the items waiting (not yet travelling) at that instant, in loading order;
   the trip arrives one full round trip later *)
Theorem fleet_batch_is_waiting_items b b' r ts :
  fstep b FActivate = Some (b', r, ts) -> transit (fs b) <> [] ->
  let batch := filter (fun it => negb (existsb (Nat.eqb it) (intransit b))) (transit (fs b)) in
  intransit b' = intransit b ++ batch /\
  (batch <> [] -> trips b' = trips b ++ [(batch, fclock b + 2 * ftransit b)]) /\
  (batch = [] -> trips b' = trips b) /\ act b' = false /\ deadline b' = fclock b + fdelay b.
Proof.
  intros H NE. destruct (fstep_spec _ _ _ _ _ H) as (_ & batch & <- & ->). simpl. repeat split; auto.
  - intros N. destruct batch; congruence.
  - intros ->. reflexivity.
  - destruct (transit (fs b)); congruence.
Qed.

(* the whole batch becomes available together, at its due time, in loading order *)
Theorem fleet_batch_arrives_together b b' r ts :
  fstep b FArrive = Some (b', r, ts) ->
  exists batch rest, trips b = (batch, fclock b) :: rest /\ trips b' = rest /\
                     ready (fs b') = ready (fs b) ++ batch /\ fclock b' = fclock b.
Proof.
  intros H. destruct (fstep_spec _ _ _ _ _ H) as (batch & rest & s' & ET & EA & ->).
  exists batch, rest. repeat split; auto. apply (arrive_spec _ _ _ _ EA).
Qed.

(* in every legal timed history: every item that became available did so no earlier than one
   full round trip and no later than one waiting delay plus one round trip after it was loaded *)
Theorem fleet_waiting_bound c d tr ops b i a :
  0 <= d -> 0 <= tr -> frun (finit c d tr) ops = Some b -> In (i, a) (avail b) ->
  exists t, In (i, t) (loads b) /\ t + 2 * tr <= a /\ a <= t + d + 2 * tr.
Proof.
  intros Hd Htr E Hi. destruct (frun_inv ops _ _ (finit_inv c d tr Hd Htr) E) as (FI & P1 & P2).
  simpl in P1, P2. destruct FI as (_ & _ & _ & _ & _ & IC & _).
  destruct (IC _ _ Hi) as (t & A & B & C). exists t. rewrite P1, P2 in *. auto.
Qed.

(* an item loaded after a departure is not part of that trip: trips are fixed when they leave *)
Theorem fleet_later_load_waits c d tr ops b batch due i t :
  0 <= d -> 0 <= tr -> frun (finit c d tr) ops = Some b -> In (batch, due) (trips b) -> In i batch ->
  In (i, t) (loads b) -> NoDup (map fst (loads b)) -> t + 2 * tr <= due.
Proof.
  intros Hd Htr E HB Hi HL ND. destruct (frun_inv ops _ _ (finit_inv c d tr Hd Htr) E) as (FI & P1 & P2).
  simpl in P1, P2. destruct FI as (_ & _ & _ & _ & IB & _).
  destruct (IB _ _ HB) as (_ & K). destruct (K _ Hi) as (t' & A & B & _).
  assert (t' = t) as -> by (eapply TBuffer.nodup_fst_inj; eauto). rewrite P2 in B. exact B.
Qed.

(* ------------------------------------------------------------------ no loaded item is left behind
   A second invariant: the travelling items are exactly the items of the trips under way, each once,
   and all still held by the fleet; every loaded item is held (waiting or travelling) or available. *)
Definition FAcc (b : tf) : Prop :=
  intransit b = concat (map fst (trips b)) /\
  NoDup (intransit b) /\
  (forall x, In x (intransit b) -> In x (transit (fs b))) /\
  (forall i t, In (i, t) (loads b) -> In i (transit (fs b)) \/ exists a, In (i, a) (avail b)) /\
  NoDup (map fst (loads b)).

Lemma filter_all {A} (f : A -> bool) l : (forall x, In x l -> f x = true) -> filter f l = l.
Proof. induction l as [|y l IH]; simpl; intros H; [|rewrite H, IH]; auto. Qed.

Lemma filter_none {A} (f : A -> bool) l : (forall x, In x l -> f x = false) -> filter f l = [].
Proof. induction l as [|y l IH]; simpl; intros H; [|rewrite H, IH]; auto. Qed.

Lemma filter_drop_prefix (batch rest : list nat) :
  NoDup (batch ++ rest) ->
  filter (fun t => negb (existsb (Nat.eqb t) batch)) (batch ++ rest) = rest.
Proof.
  intros ND. rewrite filter_app, filter_none, filter_all; auto.
  - intros x Hx. apply negb_true_iff, existsb_eqb_nIn. intros Hb. exact (NoDup_app_disj _ _ _ ND Hb Hx).
  - intros x Hx. apply negb_false_iff, existsb_eqb_In, Hx.
Qed.

Lemma finit_acc c d tr : FAcc (finit c d tr).
Proof. unfold FAcc, finit; simpl. repeat split; try constructor; intros; tauto. Qed.

Lemma with_store_acc b s' : FAcc b -> transit s' = transit (fs b) -> FAcc (with_store b s').
Proof. unfold FAcc, with_store; simpl. intros H ->. exact H. Qed.

Lemma fstep_acc b o b' r ts : FInv b -> FAcc b -> fstep b o = Some (b', r, ts) -> FAcc b'.
Proof.
  intros FI FA H. pose proof FA as (A1 & A2 & A3 & A4 & A5). apply fstep_spec in H. destruct o as [a|p t i| | |d].
  - (* API *)
    destruct H as (OK & s' & E & ->). apply with_store_acc, (TBuffer.api_shape _ _ _ _ _ OK E). exact FA.
  - (* load *)
    destruct H as (Fresh & s' & E & ->). destruct (TBuffer.put_shape _ _ _ _ _ _ _ E) as (_ & L1 & L2).
    destruct r; try (apply with_store_acc, L2; [exact FA|discriminate]).
    unfold FAcc; simpl. rewrite (L1 eq_refl). repeat split; auto.
    + intros x Hx. apply in_or_app. left. auto.
    + intros j tj [Hj|Hj].
      * inversion Hj; subst. left. apply in_or_app. right. left; reflexivity.
      * destruct (A4 _ _ Hj) as [K|K]; [left; apply in_or_app; auto|right; exact K].
    + constructor; auto.
  - (* activation *)
    destruct H as (_ & batch & EB & ->). unfold FAcc; simpl.
    assert (forall x, In x batch -> In x (transit (fs b)) /\ ~ In x (intransit b)) as HB by (intros x; rewrite EB; apply in_waiting).
    assert (NoDup batch) as NB.
    { rewrite EB. apply NoDup_filter. destruct FI as (_ & _ & _ & _ & _ & _ & _ & _ & (_ & ND & _)). eapply NoDup_app_l; eauto. }
    clear EB. repeat split; auto.
    + destruct batch as [|b0 bs].
      * rewrite app_nil_r. exact A1.
      * rewrite map_app, concat_app. simpl. rewrite app_nil_r. rewrite A1. reflexivity.
    + apply NoDup_app_intro; auto. intros x Hx Hb. destruct (HB _ Hb). auto.
    + intros x Hx. apply in_app_or in Hx. destruct Hx as [Hx|Hx]; [auto|apply HB; exact Hx].
  - (* arrival *)
    destruct H as (batch & rest & s' & ET & EA & ->). rewrite ET in A1. simpl in A1. unfold FAcc; simpl. rewrite A1 in *.
    rewrite (filter_drop_prefix _ _ A2). destruct (arrive_spec _ _ _ _ EA) as (_ & _ & KEEP & _).
    repeat split.
    + eapply NoDup_app_r; eauto.
    + intros x Hx. apply KEEP.
      * apply A3. apply in_or_app. right; exact Hx.
      * intros C. eapply NoDup_app_disj; eauto.
    + intros j tj Hj. destruct (A4 _ _ Hj) as [K|(a & K)].
      * destruct (in_dec Nat.eq_dec j batch) as [Hb|Hb].
        -- right. exists (fclock b). apply in_or_app. left. apply in_map_iff. exists j. auto.
        -- left. apply KEEP; assumption.
      * right. exists a. apply in_or_app. right; exact K.
    + exact A5.
  - (* idle *)
    destruct H as (_ & _ & _ & _ & ->). exact FA.
Qed.

Lemma frun_acc ops : forall b b', FInv b -> FAcc b -> frun b ops = Some b' -> FAcc b'.
Proof.
  induction ops as [|o r IH]; intros b b' FI FA E; cbn [frun] in E.
  - inversion E; subst; auto.
  - destruct (fstep b o) as [[[b1 r1] ts1]|] eqn:ES; [|discriminate].
    eapply IH; [eapply fstep_inv; eauto|eapply fstep_acc; eauto|exact E].
Qed.

(* C14, the upper bound at full strength: in every legal timed history, once more than one waiting
   delay plus one round trip has passed since an item was loaded, the item IS available -- no
   loaded item is left behind, whatever was loaded before, during or after the trips *)
Theorem fleet_no_item_left_behind c d tr ops b i t :
  0 <= d -> 0 <= tr -> frun (finit c d tr) ops = Some b -> In (i, t) (loads b) ->
  t + d + 2 * tr < fclock b -> exists a, In (i, a) (avail b) /\ t + 2 * tr <= a <= t + d + 2 * tr.
Proof.
  intros Hd Htr E Hi Late.
  destruct (frun_inv ops _ _ (finit_inv c d tr Hd Htr) E) as (FI & P1 & P2). simpl in P1, P2.
  pose proof (frun_acc ops _ _ (finit_inv c d tr Hd Htr) (finit_acc c d tr) E) as (A1 & A2 & A3 & A4 & A5).
  destruct FI as (F1 & F2 & F3 & F4 & F5 & F6 & F7 & F8 & F9).
  destruct (A4 _ _ Hi) as [K|(a & K)].
  - exfalso. destruct (in_dec Nat.eq_dec i (intransit b)) as [Hin|Hout].
    + (* on a trip: the trip is due within the bound and not in the past *)
      rewrite A1 in Hin. apply in_concat in Hin. destruct Hin as (batch & Hb & Hib).
      apply in_map_iff in Hb. destruct Hb as ([batch' due] & Eb & Hb). simpl in Eb. subst batch'.
      destruct (F5 _ _ Hb) as (Fut & Each). destruct (Each _ Hib) as (t' & L' & _ & Up).
      assert (t' = t) as -> by (eapply TBuffer.nodup_fst_inj; eauto). rewrite P1, P2 in *. lia.
    + (* still waiting: the activation deadline is within the bound and not in the past *)
      pose proof (F4 _ _ Hi K Hout). rewrite P1 in *. lia.
  - exists a. split; auto. destruct (F6 _ _ K) as (t' & L' & Lo & Up).
    assert (t' = t) as -> by (eapply TBuffer.nodup_fst_inj; eauto). rewrite P1, P2 in *. lia.
Qed.
