(* Invariants and theorems of the timed belt model (C12 / C13). *)
From Coq Require Import List ZArith Lia Bool Arith Sorted.
From FV Require Import TBelt.
From FV Require ListLemmas2.
Import ListNotations.
Open Scope Z_scope.

Definition WI (D now : Z) (x : mitem) : Prop :=
  0 <= total x /\ entry x <= now /\
  match intr x with
  | None => dead x = false -> since x + rem x = entry x + D + total x /\ now <= since x + rem x
  | Some s => s <= now /\ (dead x = false -> s + rem x = entry x + D + total x /\ 0 <= rem x)
  end.

Fixpoint spaced (u : Z) (l : list (nat * Z)) : Prop :=
  match l with
  | (_, e) :: (((_, e') :: _) as r) => e' + u <= e /\ spaced u r
  | _ => True
  end.

Definition entry_le (x y : mitem) : Prop := entry x <= entry y.

Record BInv (b : tb) : Prop := {
  i_D : 0 < bu b <= bD b;
  i_items : Forall (WI (bD b) (bclock b)) (moving b);
  i_arr : forall i e a t, In (i, e, a, t) (arrived b) ->
            a = e + bD b + t /\ 0 <= t /\ a <= bclock b /\ In (i, e) (entered b);
  i_mov : forall x, In x (moving b) -> In (mid x, entry x) (entered b);
  i_uniq : NoDup (map mid (moving b));
  i_ent : forall i e, In (i, e) (entered b) ->
            (exists x, In x (moving b) /\ mid x = i /\ entry x = e) \/ (exists a t, In (i, e, a, t) (arrived b));
  i_sorted : StronglySorted entry_le (moving b);
  i_cap : (occupied b <= bcap b)%nat;
  i_one : (nres b <= 1)%nat;
  i_pending : nres b = 1%nat -> forall j e, hd_error (entered b) = Some (j, e) -> e + bu b <= bclock b;
  i_spaced : spaced (bu b) (entered b)
}.

Lemma binit_inv sl c u D acc : 0 < u <= D -> BInv (binit sl c u D acc).
Proof.
  intros H. constructor; simpl; auto; try (intros; contradiction); try constructor; try lia;
    try (unfold occupied; simpl; lia); try (intros; discriminate).
Qed.

(* ------------------------------------------------------------------ list lemmas *)
Lemma find_item_some i m x : find_item i m = Some x -> In x m /\ mid x = i.
Proof.
  unfold find_item. intros H. apply find_some in H. destruct H as (A & B). apply Nat.eqb_eq in B. auto.
Qed.

Lemma in_drop i m x : In x (drop_item i m) <-> In x m /\ mid x <> i.
Proof.
  unfold drop_item. rewrite filter_In. split; intros (A & B); split; auto.
  - intros E. rewrite E, Nat.eqb_refl in B. discriminate.
  - apply negb_true_iff. apply Nat.eqb_neq. auto.
Qed.

Lemma filter_length_le {A} (p : A -> bool) l : (length (filter p l) <= length l)%nat.
Proof. induction l as [|x l IH]; simpl; auto. destruct (p x); simpl; lia. Qed.

Lemma drop_length i m x : In x m -> mid x = i -> (S (length (drop_item i m)) <= length m)%nat.
Proof.
  unfold drop_item. intros Hx <-. induction m as [|y m IH]; simpl; [destruct Hx|]. destruct Hx as [->|Hx].
  - rewrite Nat.eqb_refl. simpl. pose proof (filter_length_le (fun x0 => negb (Nat.eqb (mid x0) (mid x))) m). lia.
  - specialize (IH Hx). destruct (negb _); simpl; lia.
Qed.

Lemma remove_first_length i l : (length (remove_first i l) <= length l)%nat.
Proof. induction l as [|x l IH]; simpl; auto. destruct (Nat.eqb x i); simpl; lia. Qed.

Lemma nodup_map_filter {A B} (f : A -> B) (p : A -> bool) l : NoDup (map f l) -> NoDup (map f (filter p l)).
Proof.
  induction l as [|x l IH]; simpl; intros H; [constructor|]. inversion H; subst.
  destruct (p x); simpl; auto. constructor; auto. intros C. apply H2.
  apply in_map_iff in C. destruct C as (y & E & Hy). apply filter_In in Hy. apply in_map_iff. exists y. tauto.
Qed.

Lemma nodup_mid_inj m x y : NoDup (map mid m) -> In x m -> In y m -> mid x = mid y -> x = y.
Proof.
  induction m as [|z m IH]; [intros _ []|]. simpl. intros ND Hx Hy E. inversion ND; subst.
  destruct Hx as [->|Hx], Hy as [->|Hy]; auto.
  - exfalso. apply H1. apply in_map_iff. exists y. split; auto.
  - exfalso. apply H1. apply in_map_iff. exists x. split; auto.
Qed.

Lemma last_in {A} (l : list A) d : l <> [] -> In (last l d) l.
Proof.
  induction l as [|a l IH]; [congruence|]. intros _. destruct l as [|b l]; simpl; auto.
  right. apply IH. discriminate.
Qed.

Lemma ssorted_filter {A} (R : A -> A -> Prop) (p : A -> bool) l : StronglySorted R l -> StronglySorted R (filter p l).
Proof.
  induction 1 as [|x l S IH F]; simpl; [constructor|]. destruct (p x); auto. constructor; auto.
  apply Forall_forall. intros y Hy. apply filter_In in Hy. eapply Forall_forall in F; [exact F|tauto].
Qed.

Lemma ssorted_map {A} (R1 R2 : A -> A -> Prop) (f : A -> A) l :
  (forall x y, In x l -> In y l -> R1 x y -> R2 (f x) (f y)) -> StronglySorted R1 l -> StronglySorted R2 (map f l).
Proof.
  intros K. induction 1 as [|x l S IH F]; simpl; constructor.
  - apply IH. intros a c Ha Hc. apply K; right; auto.
  - apply Forall_forall. intros y Hy. apply in_map_iff in Hy. destruct Hy as (z & <- & Hz).
    apply K; [left; auto|right; auto|]. eapply Forall_forall in F; eauto.
Qed.

Lemma ssorted_snoc {A} (R : A -> A -> Prop) l y : StronglySorted R l -> (forall x, In x l -> R x y) -> StronglySorted R (l ++ [y]).
Proof.
  induction 1 as [|x l S IH F]; simpl; intros H.
  - constructor; constructor.
  - constructor; [apply IH; intros; apply H; auto|].
    apply Forall_forall. intros z Hz. apply in_app_or in Hz. destruct Hz as [Hz|[<-|[]]].
    + eapply Forall_forall in F; eauto.
    + apply H. auto.
Qed.

Lemma ssorted_last {A} (R : A -> A -> Prop) l d x : StronglySorted R l -> In x l -> x = last l d \/ R x (last l d).
Proof.
  induction 1 as [|y l S IH F]; [intros []|]. destruct l as [|z l]; [intros [<-|[]]; left; reflexivity|].
  change (last (y :: z :: l) d) with (last (z :: l) d). intros [<-|H]; [right|apply IH, H].
  eapply Forall_forall in F; [exact F|]. apply last_in. discriminate.
Qed.

(* ------------------------------------------------------------------ the admission test *)
Lemma gate_open b n o : gate b n o = true ->
  nres b = 0%nat /\ (occupied b < bcap b)%nat /\
  forall f m, moving b = f :: m ->
    if slotted b then entry (last (moving b) f) + bu b <= bclock b else bu b <= tob (bclock b) (last (moving b) f).
Proof.
  unfold gate. intros H. apply andb_true_iff in H. destruct H as (H0 & H). apply Nat.eqb_eq in H0. split; [exact H0|].
  destruct (moving b) as [|f m].
  - apply andb_true_iff in H. destruct H as (H & _). apply Nat.ltb_lt in H. split; [exact H|discriminate].
  - destruct (slotted b); repeat (apply andb_true_iff in H; destruct H as (H & ?)); apply Nat.ltb_lt in H;
      (split; [exact H|]); intros ? ? [= <- <-]; apply Z.leb_le; assumption.
Qed.

Lemma tob_le now x : 0 <= total x -> (forall s, intr x = Some s -> s <= now) -> tob now x <= now - entry x.
Proof. intros T S. unfold tob. destruct (intr x) as [s|]; [specialize (S s eq_refl)|]; lia. Qed.

(* a grant on a belt that still carries items: each of them entered at least one slot time ago *)
Lemma gate_spacing b n o : gate b n o = true ->
  Forall (WI (bD b) (bclock b)) (moving b) -> StronglySorted entry_le (moving b) ->
  forall x, In x (moving b) -> entry x + bu b <= bclock b.
Proof.
  intros H FA SS x Hx. destruct (gate_open _ _ _ H) as (_ & _ & GL).
  destruct (moving b) as [|f m] eqn:EM; [destruct Hx|]. specialize (GL f m eq_refl). rewrite <- EM in *.
  assert (In (last (moving b) f) (moving b)) as HL by (apply last_in; rewrite EM; discriminate).
  assert (entry x <= entry (last (moving b) f)) as LE by (destruct (ssorted_last _ _ f x SS Hx) as [<-|LE]; [lia|exact LE]).
  eapply Forall_forall in FA; [|exact HL]. destruct FA as (T & _ & W).
  destruct (slotted b); [lia|].
  assert (tob (bclock b) (last (moving b) f) <= bclock b - entry (last (moving b) f)).
  { apply tob_le; auto. intros s Es. rewrite Es in W. tauto. }
  lia.
Qed.

(* ------------------------------------------------------------------ one step *)
(* [move b o b']: the move [o] is legal in [b] and leaves [b'].  The premises are those of the tests [bstep] makes that the theorems use. *)
Inductive move (b : tb) : bop -> tb -> Prop :=
| M_idle d (POS : 0 < d) (DUE : forall x, In x (moving b) -> running x = true -> bclock b + d <= due x) :
    move b (BIdle d)
      {| slotted := slotted b; bcap := bcap b; bu := bu b; bD := bD b; bacc := bacc b; bclock := bclock b + d;
         nres := nres b; moving := moving b; bready := bready b; arrived := arrived b; entered := entered b |}
| M_grant noacc one (OPEN : gate b noacc one = true) :
    move b (BRsv noacc one)
      {| slotted := slotted b; bcap := bcap b; bu := bu b; bD := bD b; bacc := bacc b; bclock := bclock b;
         nres := S (nres b); moving := moving b; bready := bready b; arrived := arrived b; entered := entered b |}
| M_refuse noacc one : move b (BRsv noacc one) b
| M_put i n (RSV : nres b = S n) (ROOM : (length (moving b) + length (bready b) < bcap b)%nat)
    (NEW : forall e, ~ In (i, e) (entered b)) :
    move b (BPut i)
      {| slotted := slotted b; bcap := bcap b; bu := bu b; bD := bD b; bacc := bacc b; bclock := bclock b; nres := n;
         moving := moving b ++ [{| mid := i; entry := bclock b; rem := bD b; since := bclock b; intr := None;
                                   total := 0; dead := false |}];
         bready := bready b; arrived := arrived b; entered := (i, bclock b) :: entered b |}
| M_int i : move b (BInt i) (set_moving b (map (fun y => if Nat.eqb (mid y) i then interrupt (bclock b) y else y) (moving b)))
| M_resume : move b BResume (set_moving b (map (resume (bclock b)) (moving b)))
| M_ready x (IN : In x (moving b)) (RUN : intr x = None) (LIVE : dead x = false) (NOW : due x = bclock b) :
    move b (BReady (mid x))
      {| slotted := slotted b; bcap := bcap b; bu := bu b; bD := bD b; bacc := bacc b; bclock := bclock b; nres := nres b;
         moving := drop_item (mid x) (moving b); bready := bready b ++ [mid x];
         arrived := (mid x, entry x, bclock b, total x) :: arrived b; entered := entered b |}
| M_get i :
    move b (BGet i)
      {| slotted := slotted b; bcap := bcap b; bu := bu b; bD := bD b; bacc := bacc b; bclock := bclock b; nres := nres b;
         moving := moving b; bready := remove_first i (bready b); arrived := arrived b; entered := entered b |}.

Lemma bstep_move b o b' g : bstep b o = Some (b', g) -> move b o b'.
Proof.
  destruct o as [d|noacc one|i|i| |i|i]; simpl.
  - destruct (0 <? d) eqn:G1; [|discriminate]. destruct (forallb _ _) eqn:G2; [|discriminate]. intros [= <- _].
    constructor; [apply Z.ltb_lt, G1|]. intros x Hx R.
    rewrite forallb_forall in G2. specialize (G2 x Hx). rewrite R in G2. apply Z.leb_le, G2.
  - destruct (gate b noacc one) eqn:G; intros [= <- _]; constructor. exact G.
  - destruct (nres b) as [|n] eqn:N; [discriminate|]. destruct (_ <? _)%nat eqn:G1; [|discriminate].
    destruct (existsb _ _) eqn:G2; [discriminate|]. intros [= <- _]. constructor; [exact N|apply Nat.ltb_lt, G1|].
    intros e He. rewrite <- not_true_iff_false in G2. apply G2, existsb_exists. exists (i, e). split; [exact He|apply Nat.eqb_refl].
  - destruct (find_item i (moving b)) as [x|]; [|discriminate]. destruct (dead x); [discriminate|]. intros [= <- _]. constructor.
  - intros [= <- _]. constructor.
  - destruct (find_item i (moving b)) as [x|] eqn:F; [|discriminate]. destruct (find_item_some _ _ _ F) as (Hx & <-).
    unfold running. destruct (intr x) eqn:Ix; [discriminate|]. destruct (dead x) eqn:Dx; [discriminate|].
    destruct (Z.eqb_spec (due x) (bclock b)) as [G|]; [|discriminate]. intros [= <- _]. constructor; assumption.
  - destruct (existsb _ _); [|discriminate]. intros [= <- _]. constructor.
Qed.

Lemma bstep_ready b i b' g : bstep b (BReady i) = Some (b', g) ->
  exists x, In x (moving b) /\ mid x = i /\ intr x = None /\ dead x = false /\ due x = bclock b.
Proof. intros H. apply bstep_move in H. inversion H. eauto 6. Qed.

Lemma WI_mono D now now' x : now <= now' -> (running x = true -> now' <= due x) -> WI D now x -> WI D now' x.
Proof.
  unfold WI, running, due. intros L R (A & B & C). split; auto. split; [lia|].
  destruct (intr x) as [s|].
  - destruct C as (C1 & C2). split; [lia|auto].
  - intros Hd. destruct (C Hd) as (C1 & C2). split; auto. apply R. rewrite Hd. reflexivity.
Qed.

Lemma WI_interrupt D now x : WI D now x -> WI D now (interrupt now x).
Proof.
  intros (T & E & W). unfold interrupt, WI. destruct (intr x) as [s|] eqn:Ix; simpl; rewrite ?Ix.
  - repeat split; auto; try tauto; intros; discriminate.
  - split; [exact T|]. split; [exact E|]. split; [lia|]. intros Hd. destruct (W Hd). lia.
Qed.

Lemma WI_resume D now x : WI D now x -> WI D now (resume now x).
Proof.
  intros (T & E & W). unfold resume. destruct (intr x) as [s|] eqn:Ix; [|unfold WI; rewrite Ix; auto].
  destruct (dead x) eqn:Dx; [unfold WI; rewrite Ix, Dx; repeat split; try tauto; intros; discriminate|].
  destruct W as (W1 & W2). destruct (W2 eq_refl) as (W3 & W4). unfold WI; simpl. repeat split; try lia.
Qed.

Lemma interrupt_same now x : mid (interrupt now x) = mid x /\ entry (interrupt now x) = entry x.
Proof. unfold interrupt. destruct (intr x); auto. Qed.
Lemma resume_same now x : mid (resume now x) = mid x /\ entry (resume now x) = entry x.
Proof. unfold resume. destruct (intr x); [|auto]. destruct (dead x); auto. Qed.

Lemma map_moving_inv b f :
  (forall y, mid (f y) = mid y /\ entry (f y) = entry y) ->
  (forall y, WI (bD b) (bclock b) y -> WI (bD b) (bclock b) (f y)) ->
  BInv b -> BInv (set_moving b (map f (moving b))).
Proof.
  intros FE FW [iD iI iA iM iU iE iS iC iO iP iSp]. constructor; simpl; auto.
  - apply Forall_map. eapply Forall_impl; [exact FW|exact iI].
  - intros y Hy. apply in_map_iff in Hy. destruct Hy as (z & <- & Hz). destruct (FE z) as (-> & ->). auto.
  - rewrite map_map. erewrite map_ext; [exact iU|]. intros y. apply FE.
  - intros j e Hj. destruct (iE _ _ Hj) as [(y & Hy & My & Ey)|R]; [left|right; exact R].
    exists (f y). destruct (FE y) as (-> & ->). split; auto. apply in_map. exact Hy.
  - apply (ssorted_map entry_le); auto. intros x y _ _. unfold entry_le. destruct (FE x) as (_ & ->), (FE y) as (_ & ->). auto.
  - unfold occupied in *. simpl. rewrite map_length. exact iC.
Qed.

Lemma interrupt_some_inv b (c : mitem -> bool) :
  BInv b -> BInv (set_moving b (map (fun y => if c y then interrupt (bclock b) y else y) (moving b))).
Proof.
  apply map_moving_inv; intros y; destruct (c y); auto using interrupt_same, WI_interrupt.
Qed.

Lemma bstep_inv b o b' g : BInv b -> bstep b o = Some (b', g) -> BInv b'.
Proof.
  intros I H. pose proof I as [iD iI iA iM iU iE iS iC iO iP iSp].
  assert (forall x, In x (moving b) -> WI (bD b) (bclock b) x) as iW by (apply Forall_forall, iI).
  destruct (bstep_move _ _ _ _ H) as [d|noacc one|noacc one|i n|i| |x|i].
  - (* idle *)
    constructor; simpl; auto.
    + apply Forall_forall. intros x Hx. eapply WI_mono; [| |exact (iW x Hx)]; [lia|]. apply DUE, Hx.
    + intros i e a t Hi. destruct (iA _ _ _ _ Hi) as (A1 & A2 & A3 & A4). repeat split; auto. lia.
    + intros N j e Hj. specialize (iP N j e Hj). lia.
  - (* entry granted *)
    destruct (gate_open _ _ _ OPEN) as (G1 & G2 & _).
    constructor; simpl; auto.
    + unfold occupied in *; simpl. lia.
    + intros _ j e Hj. destruct (entered b) as [|[j' e'] en] eqn:EN; [discriminate|]. simpl in Hj. inversion Hj; subst j' e'.
      destruct (iE j e) as [(x & Hx & Mx & Ex)|(a & t & Ha)]; [left; reflexivity| |].
      * pose proof (gate_spacing b noacc one OPEN iI iS x Hx). lia.
      * destruct (iA _ _ _ _ Ha) as (A1 & A2 & A3 & _). lia.
  - (* entry refused *)
    exact I.
  - (* put *)
    assert (n = 0%nat) by lia. subst n.
    constructor; simpl; auto.
    + apply Forall_app. split; auto. constructor; [|constructor]. unfold WI; simpl. repeat split; lia.
    + intros j e a t Hj. destruct (iA _ _ _ _ Hj) as (A1 & A2 & A3 & A4). repeat split; auto.
    + intros x Hx. apply in_app_or in Hx. destruct Hx as [Hx|[<-|[]]]; simpl; auto.
    + rewrite map_app. simpl. apply ListLemmas2.NoDup_snoc; auto.
      intros C. apply in_map_iff in C. destruct C as (x & Mx & Hx). specialize (iM x Hx). rewrite Mx in iM. eapply NEW; eauto.
    + intros j e [Hj|Hj].
      * inversion Hj; subst. left. eexists. split; [apply in_or_app; right; left; reflexivity|]. simpl. auto.
      * destruct (iE _ _ Hj) as [(x & Hx & Mx & Ex)|R]; [left; exists x; split; [apply in_or_app; auto|auto]|right; exact R].
    + apply ssorted_snoc; auto. intros x Hx. apply (iW x Hx).
    + unfold occupied in *. simpl. rewrite app_length. simpl. rewrite RSV in iC. lia.
    + intros; discriminate.
    + destruct (entered b) as [|[j e] en] eqn:EN; [exact Logic.I|]. split; [|exact iSp].
      apply (iP RSV j e). reflexivity.
  - (* interrupt *)
    apply (interrupt_some_inv b (fun y => Nat.eqb (mid y) i)), I.
  - (* resume *)
    apply map_moving_inv; auto using resume_same, WI_resume.
  - (* arrival at the exit *)
    destruct (iW x IN) as (T & E & W).
    rewrite RUN in W. destruct (W LIVE) as (W1 & W2). unfold due in NOW.
    constructor; simpl; auto.
    + apply (incl_Forall (incl_filter _ _) iI).
    + intros j e a t [Hj|Hj].
      * injection Hj as <- <- <- <-. repeat split; try lia. apply iM. exact IN.
      * apply iA. exact Hj.
    + intros y Hy. apply iM, (incl_filter _ _ _ Hy).
    + apply nodup_map_filter. exact iU.
    + intros j e Hj. destruct (iE _ _ Hj) as [(y & Hy & My & Ey)|(a & t & R)]; [|right; exists a, t; right; exact R].
      destruct (Nat.eq_dec j (mid x)) as [->|NE].
      * right. assert (y = x) as -> by (eapply nodup_mid_inj; eauto).
        exists (bclock b), (total x). left. congruence.
      * left. exists y. split; auto. apply in_drop. split; auto. congruence.
    + apply ssorted_filter. exact iS.
    + unfold occupied in *. simpl. rewrite app_length. simpl. pose proof (drop_length _ _ _ IN eq_refl). lia.
  - (* get *)
    constructor; simpl; auto. unfold occupied in *. simpl. pose proof (remove_first_length i (bready b)). lia.
Qed.

(* ------------------------------------------------------------------ every legal history *)
Lemma bstep_params b o b' g : bstep b o = Some (b', g) ->
  slotted b' = slotted b /\ bcap b' = bcap b /\ bu b' = bu b /\ bD b' = bD b /\ bacc b' = bacc b /\ bclock b <= bclock b'.
Proof. intros H. destruct (bstep_move _ _ _ _ H); simpl; repeat split; lia. Qed.

Lemma brun_inv ops : forall b b', BInv b -> brun b ops = Some b' ->
  BInv b' /\ bcap b' = bcap b /\ bu b' = bu b /\ bD b' = bD b.
Proof.
  induction ops as [|o r IH]; intros b b' I E; cbn [brun] in E.
  - inversion E; subst. auto.
  - destruct (bstep b o) as [[b1 g]|] eqn:ES; [|discriminate].
    destruct (IH _ _ (bstep_inv _ _ _ _ I ES) E) as (A & B1 & B2 & B3).
    destruct (bstep_params _ _ _ _ ES) as (_ & C1 & C2 & C3 & _). split; [exact A|]. repeat split; congruence.
Qed.

Lemma reachable_inv sl c u D acc ops b :
  0 < u <= D -> brun (binit sl c u D acc) ops = Some b -> BInv b /\ bcap b = c /\ bu b = u /\ bD b = D.
Proof. intros H E. exact (brun_inv ops _ _ (binit_inv sl c u D acc H) E). Qed.

(* C12: an item is offered to the destination exactly [D] plus the time it spent interrupted after it
   entered -- never earlier than the full belt travel time, whatever the pattern of interrupts *)
Theorem travel_time sl c u D acc ops b i e a t :
  0 < u <= D -> brun (binit sl c u D acc) ops = Some b -> In (i, e, a, t) (arrived b) ->
  a = e + D + t /\ 0 <= t /\ In (i, e) (entered b).
Proof.
  intros H E Hi. destruct (reachable_inv _ _ _ _ _ _ _ H E) as (I & _ & _ & <-).
  destruct (i_arr _ I _ _ _ _ Hi) as (A & B & _ & C). auto.
Qed.

Corollary min_travel_time sl c u D acc ops b i e a t :
  0 < u <= D -> brun (binit sl c u D acc) ops = Some b -> In (i, e, a, t) (arrived b) -> e + D <= a.
Proof. intros H E Hi. destruct (travel_time _ _ _ _ _ _ _ _ _ _ _ H E Hi) as (A & B & _). lia. Qed.

(* C12: capacity -- items on the belt plus granted entries never exceed the capacity *)
Theorem belt_capacity sl c u D acc ops b :
  0 < u <= D -> brun (binit sl c u D acc) ops = Some b ->
  (nres b + length (moving b) + length (bready b) <= c)%nat.
Proof.
  intros H E. destruct (reachable_inv _ _ _ _ _ _ _ H E) as (I & <- & _). exact (i_cap _ I).
Qed.

(* C12: successive items enter at least one slot time apart, and one entry is granted at a time *)
Theorem entry_spacing sl c u D acc ops b :
  0 < u <= D -> brun (binit sl c u D acc) ops = Some b -> spaced u (entered b) /\ (nres b <= 1)%nat.
Proof.
  intros H E. destruct (reachable_inv _ _ _ _ _ _ _ H E) as (I & _ & <- & _). exact (conj (i_spaced _ I) (i_one _ I)).
Qed.

(* ------------------------------------------------------------------ histories without interrupts *)
Definition not_int (o : bop) : bool := match o with BInt _ => false | _ => true end.

Definition NInv (b : tb) : Prop :=
  Forall (fun x => total x = 0 /\ intr x = None /\ dead x = false) (moving b) /\
  forall i e a t, In (i, e, a, t) (arrived b) -> t = 0.

Lemma bstep_ninv b o b' g : NInv b -> not_int o = true -> bstep b o = Some (b', g) -> NInv b'.
Proof.
  intros (N1 & N2) NI H. destruct (bstep_move _ _ _ _ H); try discriminate; split; auto; simpl.
  - apply Forall_app. split; auto.
  - apply Forall_map. eapply Forall_impl; [|exact N1]. intros z (A & B & C). unfold resume. rewrite B. auto.
  - apply (incl_Forall (incl_filter _ _) N1).
  - intros j e a t [Hj|Hj]; [|eauto]. injection Hj as <- <- <- <-. eapply Forall_forall in N1; [|exact IN]. tauto.
Qed.

Lemma brun_ninv ops : forall b b', NInv b -> forallb not_int ops = true -> brun b ops = Some b' -> NInv b'.
Proof.
  induction ops as [|o r IH]; intros b b' N F E; cbn [brun] in E.
  - inversion E; subst; auto.
  - simpl in F. apply andb_true_iff in F. destruct F as (F1 & F2).
    destruct (bstep b o) as [[b1 g]|] eqn:ES; [|discriminate].
    apply (IH b1 b' (bstep_ninv _ _ _ _ N F1 ES) F2 E).
Qed.

Lemma uninterrupted_ninv sl c u D acc ops b :
  forallb not_int ops = true -> brun (binit sl c u D acc) ops = Some b -> NInv b.
Proof. apply brun_ninv. split; [constructor|intros ? ? ? ? []]. Qed.

(* C12: when the belt is never interrupted (the destination takes every item as soon as it is
   offered, so the conveyor never stalls) the travel time is exactly [D] *)
Theorem exact_travel_uninterrupted sl c u D acc ops b i e a t :
  0 < u <= D -> forallb not_int ops = true -> brun (binit sl c u D acc) ops = Some b ->
  In (i, e, a, t) (arrived b) -> a = e + D.
Proof.
  intros H NI E Hi. destruct (travel_time _ _ _ _ _ _ _ _ _ _ _ H E Hi) as (A & _).
  destruct (uninterrupted_ninv _ _ _ _ _ _ _ NI E) as (_ & N2). rewrite (N2 _ _ _ _ Hi) in A. lia.
Qed.

Lemma spaced_bound u l : 0 < u -> spaced u l -> forall i e, hd_error l = Some (i, e) ->
  forall j e', In (j, e') (tl l) -> e' < e.
Proof.
  intros Hu. induction l as [|[i0 e0] l IH]; [discriminate|]. intros S i e [= <- <-] j e' Hj. simpl in Hj.
  destruct l as [|[i1 e1] l]; [destruct Hj|]. destruct S as (S1 & S2). destruct Hj as [Hj|Hj].
  - inversion Hj; subst. lia.
  - specialize (IH S2 i1 e1 eq_refl j e' Hj). lia.
Qed.

Lemma spaced_entry_inj u l : 0 < u -> spaced u l -> forall i j e, In (i, e) l -> In (j, e) l -> i = j.
Proof.
  intros Hu. induction l as [|[i0 e0] l IH]; [intros _ ? ? ? []|]. intros S i j e Hi Hj.
  assert (spaced u l) as S' by (destruct l as [|[? ?] ?]; [exact Logic.I|apply S]).
  destruct Hi as [Hi|Hi], Hj as [Hj|Hj].
  - congruence.
  - inversion Hi; subst. pose proof (spaced_bound u _ Hu S i e eq_refl j e Hj). lia.
  - inversion Hj; subst. pose proof (spaced_bound u _ Hu S j e eq_refl i e Hi). lia.
  - eapply IH; eauto.
Qed.

(* C12: without interrupts the item that arrives at the exit is the oldest one on the belt, so the
   items are offered in the order in which they entered *)
Theorem fifo_uninterrupted sl c u D acc ops b i b' g :
  0 < u <= D -> forallb not_int ops = true -> brun (binit sl c u D acc) ops = Some b ->
  bstep b (BReady i) = Some (b', g) -> exists x m, moving b = x :: m /\ mid x = i.
Proof.
  intros H NI E ST.
  destruct (reachable_inv _ _ _ _ _ _ _ H E) as (I & _).
  destruct (uninterrupted_ninv _ _ _ _ _ _ _ NI E) as (N1 & _).
  destruct (bstep_ready _ _ _ _ ST) as (x & Hx & Mx & _ & _ & G).
  (* no item was ever stopped, so each is due exactly [D] after it entered, and none is overdue *)
  assert (forall y, In y (moving b) -> due y = entry y + bD b /\ bclock b <= due y) as K.
  { intros y Hy. pose proof (i_items _ I) as W. rewrite Forall_forall in W, N1.
    destruct (N1 y Hy) as (Ty & Iy & Dy). destruct (W y Hy) as (_ & _ & Wy). rewrite Iy in Wy. destruct (Wy Dy). unfold due. lia. }
  pose proof (i_sorted _ I) as SS. pose proof (i_mov _ I) as M.
  destruct (moving b) as [|h m]; [destruct Hx|]. exists h, m. split; auto.
  destruct Hx as [->|Hx]; auto.
  (* x is behind h, so h entered no later; being due no earlier, it entered at the same time: it is x *)
  inversion SS as [|? ? _ FA]; subst. rewrite Forall_forall in FA. specialize (FA x Hx). unfold entry_le in FA.
  assert (In h (h :: m)) as Hh by (left; reflexivity). assert (In x (h :: m)) as Hx' by (right; exact Hx).
  destruct (K h Hh), (K x Hx'). assert (entry h = entry x) as EE by lia.
  apply (spaced_entry_inj (bu b) (entered b)) with (e := entry x); [apply (i_D _ I)|apply (i_spaced _ I)| |apply M, Hx'].
  rewrite <- EE. apply M, Hh.
Qed.

(* ------------------------------------------------------------------ C13: stopping and resuming *)
(* distance travelled + distance still to go = the whole belt, for every item on the belt, in every
   reachable state and under every pattern of interrupts: an interrupted item is frozen ... *)
Definition to_go (now : Z) (x : mitem) : Z :=
  match intr x with Some _ => rem x | None => due x - now end.

Lemma togo_tob b x : BInv b -> In x (moving b) -> dead x = false ->
  tob (bclock b) x + to_go (bclock b) x = bD b /\ 0 <= to_go (bclock b) x.
Proof.
  intros I Hx Dx. pose proof (i_items _ I) as W. eapply Forall_forall in W; [|exact Hx]. destruct W as (T & En & W).
  unfold tob, to_go, due. destruct (intr x) as [s|].
  - destruct W as (W1 & W2). destruct (W2 Dx). lia.
  - destruct (W Dx). lia.
Qed.

Theorem travel_accounting sl c u D acc ops b x :
  0 < u <= D -> brun (binit sl c u D acc) ops = Some b -> In x (moving b) -> dead x = false ->
  tob (bclock b) x + to_go (bclock b) x = D /\ 0 <= to_go (bclock b) x.
Proof.
  intros H E Hx Dx. destruct (reachable_inv _ _ _ _ _ _ _ H E) as (I & _ & _ & <-). apply togo_tob; assumption.
Qed.

(* ... the passing of time moves no interrupted item ... *)
Theorem interrupted_item_frozen b d b' g x s :
  bstep b (BIdle d) = Some (b', g) -> In x (moving b) -> intr x = Some s ->
  In x (moving b') /\ tob (bclock b') x = tob (bclock b) x /\ to_go (bclock b') x = to_go (bclock b) x.
Proof.
  simpl. destruct ((0 <? d) && _); [|discriminate]. intros [= <- _] Hx Ix. simpl. split; auto.
  unfold tob, to_go. rewrite Ix. split; lia.
Qed.

(* ... and on release it resumes from exactly where it stopped: it needs its remaining travel time *)
Theorem resume_is_exact b b' g x s :
  bstep b BResume = Some (b', g) -> In x (moving b) -> intr x = Some s -> dead x = false ->
  let y := resume (bclock b) x in
  In y (moving b') /\ intr y = None /\ due y = bclock b + rem x /\ total y = total x + (bclock b - s) /\ bclock b' = bclock b.
Proof.
  simpl. intros [= <- _] Hx Ix Dx. simpl. split; [apply in_map; exact Hx|].
  unfold resume, due. rewrite Ix, Dx. simpl. auto.
Qed.

(* the admission test: a non-accumulating continuous belt lets in nothing while an item waits at the exit *)
Theorem nonacc_closed_while_head_waits b n o :
  slotted b = false -> bacc b = false -> bready b <> [] -> gate b n o = false.
Proof.
  intros S A R. unfold gate. rewrite S, A. destruct (bready b) as [|r rs]; [congruence|]. simpl.
  destruct (moving b); rewrite ?andb_false_r; reflexivity.
Qed.

(* an accumulating belt with nothing moving lets in until it holds [capacity] items *)
Theorem acc_open_until_full b n o :
  bacc b = true -> moving b = [] -> nres b = 0%nat -> gate b n o = (length (bready b) <? bcap b)%nat.
Proof.
  intros A M N. unfold gate, occupied. rewrite A, M, N. simpl. rewrite orb_true_r, andb_true_r. reflexivity.
Qed.

