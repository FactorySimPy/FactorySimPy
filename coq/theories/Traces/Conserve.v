(* A verified monitor for C03 (flow items are conserved across the factory).
   [accept] replays a trace of item movements and fails as soon as an item is moved from a place
   where it is not; acceptance of a trace implies, for every prefix, that each generated item is
   in exactly one place and the counting equation of C03 holds.  The check runs the extracted
   monitor on the implementation's trace and on the model's trace of every explored factory. *)
From Coq Require Import List ZArith Lia Bool Arith.
From FV Require Import World.
Import ListNotations.
Local Open Scope nat_scope.

Inductive place := PSrc (n : nat) | PEdge (e : nat) | PNode (n : nat) | PPal (p : nat) | PDisc (n : nat) | PRecv (n : nat).

Definition place_eqb (a b : place) : bool :=
  match a, b with
  | PSrc x, PSrc y | PEdge x, PEdge y | PNode x, PNode y | PPal x, PPal y | PDisc x, PDisc y | PRecv x, PRecv y => Nat.eqb x y
  | _, _ => false
  end.

(* the place map: one entry per generated item, newest first *)
Definition pmap := list (nat * place).

Fixpoint lookup (m : pmap) (i : nat) : option place :=
  match m with [] => None | (j, p) :: r => if Nat.eqb j i then Some p else lookup r i end.
Fixpoint setp (m : pmap) (i : nat) (p : place) : pmap :=
  match m with [] => [] | (j, q) :: r => if Nat.eqb j i then (j, p) :: r else (j, q) :: setp r i p end.

Section Monitor.
  Variable esrc : nat -> nat.      (* source node of an edge *)
  Variable is_sink : nat -> bool.

  (* where may the item be when it is put on edge e: held by the edge's source node, still at a
     source, or inside a pallet held by that node (splitter unpacking) *)
  Definition may_put (m : pmap) (e i : nat) : bool :=
    match lookup m i with
    | Some (PSrc n) | Some (PNode n) => Nat.eqb n (esrc e)
    | Some (PPal p) => match lookup m p with Some (PNode n) => Nat.eqb n (esrc e) | _ => false end
    | _ => false
    end.

  Definition mstep (m : pmap) (ev : tev) : option pmap :=
    match ev with
    | LGen _ n i => match lookup m i with None => Some ((i, PSrc n) :: m) | Some _ => None end
    | LPut _ e i => if may_put m e i then Some (setp m i (PEdge e)) else None
    | LGet _ e i n => match lookup m i with
                      | Some (PEdge e') => if Nat.eqb e e' then Some (setp m i (PNode n)) else None
                      | _ => None
                      end
    | LPack _ n pal i => match lookup m i, lookup m pal with
                         | Some (PNode a), Some (PNode b) => if Nat.eqb a n && Nat.eqb b n then Some (setp m i (PPal pal)) else None
                         | _, _ => None
                         end
    | LDiscard _ n i => match lookup m i with
                        | Some (PSrc a) | Some (PNode a) => if Nat.eqb a n then Some (setp m i (PDisc n)) else None
                        | Some (PPal p) => match lookup m p with
                                           | Some (PNode a) => if Nat.eqb a n then Some (setp m i (PDisc n)) else None
                                           | _ => None
                                           end
                        | _ => None
                        end
    | LRecv _ n i _ => match lookup m i with
                     | Some (PNode a) => if Nat.eqb a n then Some (setp m i (PRecv n)) else None
                     | _ => None
                     end
    | LSel _ _ _ | LDraw _ _ _ => Some m
    end.

  Fixpoint accept (m : pmap) (l : list tev) : option pmap :=
    match l with [] => Some m | ev :: r => match mstep m ev with Some m' => accept m' r | None => None end end.

  (* ---------------------------------------------------------------- what acceptance means *)
  Definition is_src p := match p with PSrc _ => true | _ => false end.
  Definition is_edge p := match p with PEdge _ => true | _ => false end.
  Definition is_node p := match p with PNode _ => true | _ => false end.
  Definition is_pal p := match p with PPal _ => true | _ => false end.
  Definition is_disc p := match p with PDisc _ => true | _ => false end.
  Definition is_recv p := match p with PRecv _ => true | _ => false end.
  Definition cnt (f : place -> bool) (m : pmap) : nat := length (filter (fun x => f (snd x)) m).

  Lemma setp_keys m i p : map fst (setp m i p) = map fst m.
  Proof. induction m as [|[j q] r IH]; simpl; auto. destruct (Nat.eqb j i); simpl; congruence. Qed.

  Lemma lookup_none_notin m i : lookup m i = None -> ~ In i (map fst m).
  Proof.
    induction m as [|[j q] r IH]; simpl; auto. destruct (Nat.eqb_spec j i); [discriminate|].
    intros H [E|E]; [congruence|]. apply IH; auto.
  Qed.

  Lemma mstep_shape m ev m' : mstep m ev = Some m' ->
    match ev with
    | LGen _ n i => lookup m i = None /\ m' = (i, PSrc n) :: m
    | LSel _ _ _ | LDraw _ _ _ => m' = m
    | _ => exists i p, m' = setp m i p
    end.
  Proof.
    destruct ev; simpl; intros E;
      repeat match type of E with
             | context [match ?x with _ => _ end] => destruct x eqn:?; try discriminate
             end; inversion E; subst; eauto.
  Qed.

  Lemma mstep_keys m ev m' : mstep m ev = Some m' -> NoDup (map fst m) -> NoDup (map fst m').
  Proof.
    intros E ND. apply mstep_shape in E.
    destruct ev; try (destruct E as (j & q & ->); rewrite setp_keys; exact ND); try (subst; exact ND).
    destruct E as (L & ->). simpl. constructor; auto. apply lookup_none_notin; auto.
  Qed.

  (* every entry has exactly one place (the map is a function) and the six categories partition it *)
  Lemma partition_count m :
    length m = cnt is_src m + cnt is_edge m + cnt is_node m + cnt is_pal m + cnt is_disc m + cnt is_recv m.
  Proof.
    unfold cnt. induction m as [|[j p] r IH]; simpl; auto. destruct p; simpl; lia.
  Qed.

  (* number of LGen events of a trace *)
  Definition gens (l : list tev) : nat := length (filter (fun e => match e with LGen _ _ _ => true | _ => false end) l).

  Lemma setp_length m i p : length (setp m i p) = length m.
  Proof. rewrite <- (map_length fst), setp_keys. apply map_length. Qed.

  Lemma mstep_len m ev m' : mstep m ev = Some m' ->
    length m' = length m + match ev with LGen _ _ _ => 1 | _ => 0 end.
  Proof.
    intros E. apply mstep_shape in E.
    destruct ev; try (destruct E as (j & q & ->); rewrite setp_length; lia); try (subst; lia).
    destruct E as (_ & ->). simpl. lia.
  Qed.

  (* C03: if the monitor accepts a trace then after it -- and, the monitor being prefix-closed,
     after every prefix -- every generated item has exactly one place and
     generated = at sources + in edges + in nodes + packed + discarded + received *)
  Theorem accept_conservation l : forall m m',
    accept m l = Some m' -> NoDup (map fst m) ->
    NoDup (map fst m') /\ length m' = length m + gens l /\
    length m' = cnt is_src m' + cnt is_edge m' + cnt is_node m' + cnt is_pal m' + cnt is_disc m' + cnt is_recv m'.
  Proof.
    induction l as [|ev r IH]; simpl; intros m m' E ND.
    - inversion E; subst. split; auto. split; [unfold gens; simpl; lia|apply partition_count].
    - destruct (mstep m ev) as [m1|] eqn:E1; [|discriminate].
      destruct (IH _ _ E (mstep_keys _ _ _ E1 ND)) as (A & B & C). split; auto. split; auto.
      rewrite B, (mstep_len _ _ _ E1). unfold gens. simpl. destruct ev; simpl; lia.
  Qed.

  Theorem accept_prefix l1 l2 m m' : accept m (l1 ++ l2) = Some m' -> exists m1, accept m l1 = Some m1.
  Proof.
    revert m. induction l1 as [|ev r IH]; simpl; intros m E; eauto.
    destruct (mstep m ev); [eauto|discriminate].
  Qed.
End Monitor.
