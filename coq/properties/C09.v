(* C09 -- blocking nodes never discard; non-blocking nodes never wait.
   Proved: in every reachable world of every factory configuration a blocking node has discarded
   nothing (C09_blocking_never_discards, lifted through every process block of Source, Machine,
   Splitter, Combiner in theories/Factory/FactoryDisc.v); the probe a non-blocking node uses (can_put of Buffer / Fleet, REGENERATED from source)
   is true exactly when a reservation issued at that instant is granted at once -- so "push if
   there is room, otherwise drop" is decided on the truth; and a sub-process started by
   env.process runs its first block (the reservation) before any other event of the instant
   (URGENT priority, kernel model).  That non-blocking nodes push / drop at the ready instant
   (never wait) is carried by the executable factory model and compared on every explored
   factory; not a theorem for every configuration. *)
From Coq Require Import List ZArith Bool Arith.
From FV Require Import SrcFragments Kernel.
From FV Require StoreB StoreBInv StoreBProps TieB.
From FV Require World Factory FactoryInv FactoryDisc.
Import ListNotations.
Open Scope Z_scope.

(* every configuration (nodes, edges, construction order) whose blocking nodes start with a zero
   discard counter, every number of kernel steps: a blocking node has discarded nothing, and every
   node still has its configured blocking flag *)
Theorem C09_blocking_never_discards :
  forall nodes edges order n,
    (forall nd, In nd nodes -> World.nblocking nd = true -> World.ndisc nd = 0%nat) ->
    forall i, (i < length nodes)%nat ->
      let nd := World.get_node (FactoryInv.iter_fstep n (Factory.mk_world nodes edges order)) i in
      World.nblocking nd = World.nblocking (nth i nodes World.node0) /\
      (World.nblocking nd = true -> World.ndisc nd = 0%nat).
Proof. exact FactoryDisc.blocking_never_discards. Qed.
Print Assumptions C09_blocking_never_discards.

Theorem C09_probe_is_exact :
  forall s p pr, StoreB.is_belt (StoreB.s_kind s) = false -> StoreBInv.Inv s -> StoreBProps.NoLost s ->
    (Buffer_can_put (TieB.lensB s) = true <-> snd (StoreB.step s (StoreB.RPut p pr)) = [StoreB.next s]) /\
    (Fleet_can_put (TieB.lensB s) = true <-> snd (StoreB.step s (StoreB.RPut p pr)) = [StoreB.next s]).
Proof. exact TieB.can_put_iff_immediate_grant. Qed.
Print Assumptions C09_probe_is_exact.

(* an URGENT entry scheduled now is ahead of every NORMAL entry of the same instant *)
Theorem C09_urgent_first :
  forall t s1 s2 e1 e2,
    qlt {| q_time := t; q_prio := URGENT; q_seq := s1; q_ev := e1 |} {| q_time := t; q_prio := NORMAL; q_seq := s2; q_ev := e2 |} = true.
Proof. intros. unfold qlt. simpl. rewrite Z.ltb_irrefl, Z.eqb_refl. reflexivity. Qed.
Print Assumptions C09_urgent_first.

From FV Require FactoryProbe StoreBWeak.
(* non-blocking never waits, at the factory level: in every reachable world of every configuration whose
   Buffer / Fleet edges start empty (WN), a yes of the probe means the space reservation then issued
   (the Sync + RPut pair of e_reserve_put) is granted by the store in that very call, a no means nothing
   is granted (theories/Factory/FactoryProbe.v) *)
Theorem C09_probe_decides_grant_in_every_factory :
  forall nodes edges order n, Forall (fun ed => StoreBWeak.WN (World.est ed)) edges ->
  let w := FactoryInv.iter_fstep n (Factory.mk_world nodes edges order) in
  forall e ev p, (e < length (World.wedges w))%nat ->
    (World.e_can_put w e = true ->
       snd (StoreB.step (FactoryProbe.synced w e ev) (StoreB.RPut p 0)) = [StoreB.next (FactoryProbe.synced w e ev)]) /\
    (World.e_can_put w e = false -> snd (StoreB.step (FactoryProbe.synced w e ev) (StoreB.RPut p 0)) = []).
Proof. exact FactoryProbe.probe_decides_grant_everywhere. Qed.
Print Assumptions C09_probe_decides_grant_in_every_factory.

(* ... and the kernel event the node then waits on is already triggered: the wait is over within the
   same instant.  Uses the token-alignment invariant (theories/Factory/FactoryTok.v: on every edge of every
   reachable world the store's token counter is at most the kernel's event count, so the Sync step of
   e_reserve_put makes the granted token and the returned event coincide). *)
From FV Require FactoryTok.
Theorem C09_probe_yes_then_no_wait_in_every_factory :
  forall nodes edges order n,
    Forall (fun ed => StoreBWeak.WN (World.est ed)) edges ->
    Forall (fun ed => StoreB.next (World.est ed) = 0%nat) edges ->
    let w := FactoryInv.iter_fstep n (Factory.mk_world nodes edges order) in
    forall e p, (e < length (World.wedges w))%nat -> World.e_can_put w e = true ->
      e_trig (get_ev (World.wk (fst (World.e_reserve_put w e p))) (snd (World.e_reserve_put w e p))) = true.
Proof. exact FactoryProbe.probe_yes_reservation_triggered. Qed.
Print Assumptions C09_probe_yes_then_no_wait_in_every_factory.

Theorem C09_tokens_aligned_in_every_factory :
  forall nodes edges order n,
    Forall (fun ed => StoreB.next (World.est ed) = 0%nat) edges ->
    let w := FactoryInv.iter_fstep n (Factory.mk_world nodes edges order) in
    forall i ed, nth_error (World.wedges w) i = Some ed -> (StoreB.next (World.est ed) <= length (evs (World.wk w)))%nat.
Proof. exact FactoryTok.tokens_aligned_everywhere. Qed.
Print Assumptions C09_tokens_aligned_in_every_factory.

(* the premises are those of a freshly built edge: StoreB.init satisfies both *)
Example C09_fresh_edge_ok : forall k m c, StoreB.is_belt k = false ->
  StoreBWeak.WN (StoreB.init k m c) /\ StoreB.next (StoreB.init k m c) = 0%nat.
Proof. intros k m c NB. split; [apply StoreBWeak.init_wn; exact NB|reflexivity]. Qed.

(* ---- the non-blocking half at the level of the process blocks (theories/Factory/FactoryBlocks.v; every world, no
   reachability assumption): the block that runs when an item is ready -- the machine worker whose processing timer
   has fired, the source that has just created the item -- under FIRST_AVAILABLE output in non-blocking mode.
   No out-edge has room: the item is dropped in that very block, exactly one discard is counted and one discard entry
   written for exactly that item, and no edge is touched (nothing reserved, nothing put). *)
From FV Require FactoryBlocks.
From RecordUpdate Require Import RecordUpdate.
Import World.
Open Scope Z_scope.
Theorem C09_nonblocking_worker_drops_at_once :
  forall w p,
  let n := pown (Factory.me w p) in let nd := get_node w n in
  ppc (Factory.me w p) = 1%nat -> noutsel nd = PFirst -> nblocking nd = false ->
  Factory.first_can_put w (nouts nd) = None -> (n < length (wnodes w))%nat ->
  let w' := fst (Factory.worker_block w p) in
  FactoryBlocks.edges_untouched w w' /\
  wlog w' = wlog w ++ [LDiscard (wnow w) n (pit (Factory.me w p))] /\
  ndisc (get_node w' n) = S (ndisc nd).
Proof. exact FactoryBlocks.worker_nonblocking_drops. Qed.
Print Assumptions C09_nonblocking_worker_drops_at_once.

(* Some out-edge has room: nothing is dropped or counted, no edge is touched by this block, and one push process is
   started, for exactly this item and the FIRST out-edge whose probe says yes (C09_probe_yes_then_no_wait_in_every_factory: its
   reservation is granted in the call and its event is already triggered) *)
Theorem C09_nonblocking_worker_pushes_to_first_with_room :
  forall w p e,
  let n := pown (Factory.me w p) in let nd := get_node w n in
  ppc (Factory.me w p) = 1%nat -> noutsel nd = PFirst -> nblocking nd = false ->
  Factory.first_can_put w (nouts nd) = Some e -> (p < length (wprocs w))%nat ->
  let w' := fst (Factory.worker_block w p) in
  FactoryBlocks.edges_untouched w w' /\ wlog w' = wlog w /\ ndisc (get_node w' n) = ndisc nd /\
  length (wprocs w') = S (length (wprocs w)) /\
  let q := nth (length (wprocs w)) (wprocs w') proc0 in
  pkd q = KPush /\ pown q = n /\ pit q = pit (Factory.me w p) /\ pix q = e /\ ppc q = 0%nat /\ palive q = true.
Proof. exact FactoryBlocks.worker_nonblocking_pushes. Qed.
Print Assumptions C09_nonblocking_worker_pushes_to_first_with_room.

Theorem C09_nonblocking_source_drops_at_once :
  forall w p,
  let n := pown (Factory.me w p) in let nd := get_node w n in
  ppc (Factory.me w p) = 2%nat -> noutsel nd = PFirst -> nblocking nd = false ->
  Factory.first_can_put w (nouts nd) = None -> (n < length (wnodes w))%nat ->
  let item := length (witems w) in
  let w' := fst (Factory.source_block w p) in
  wedges w' = wedges w /\
  witems w' = witems w ++ [item0 <| i_src := n |> <| i_pallet := npallet nd |>] /\
  wlog w' = wlog w ++ [LGen (wnow w) n item; LDiscard (wnow w) n item;
                       LDraw n 0 (stream_at (ndelays nd) (ndptr nd))] /\
  ndisc (get_node w' n) = S (ndisc nd).
Proof. exact FactoryBlocks.source_nonblocking_drops. Qed.
Print Assumptions C09_nonblocking_source_drops_at_once.

Theorem C09_nonblocking_source_pushes_to_first_with_room :
  forall w p e,
  let n := pown (Factory.me w p) in let nd := get_node w n in
  ppc (Factory.me w p) = 2%nat -> noutsel nd = PFirst -> nblocking nd = false ->
  Factory.first_can_put w (nouts nd) = Some e -> (p < length (wprocs w))%nat ->
  let item := length (witems w) in
  let w' := fst (Factory.source_block w p) in
  wedges w' = wedges w /\
  wlog w' = wlog w ++ [LGen (wnow w) n item] /\
  ndisc (get_node w' n) = ndisc nd /\
  length (wprocs w') = S (length (wprocs w)) /\
  let q := nth (length (wprocs w)) (wprocs w') proc0 in
  pkd q = KPush /\ pown q = n /\ pit q = item /\ pix q = e /\ ppc q = 0%nat /\ palive q = true.
Proof. exact FactoryBlocks.source_nonblocking_pushes. Qed.
Print Assumptions C09_nonblocking_source_pushes_to_first_with_room.

(* the same for an index policy (ROUND_ROBIN), every world: one draw, recorded; no room on the drawn out-edge => the item is
   dropped in that very block (one discard counted and logged for exactly this item, no edge touched); room => nothing is
   dropped and a push process for exactly this item and exactly the drawn out-edge is started *)
Theorem C09_nonblocking_round_robin_worker_drops_at_once :
  forall w p,
  let n := pown (Factory.me w p) in let nd := get_node w n in
  ppc (Factory.me w p) = 1%nat -> noutsel nd = PRoundRobin -> nblocking nd = false -> nouts nd <> [] ->
  (n < length (wnodes w))%nat ->
  let k := noutptr nd in let m := length (nouts nd) in
  e_can_put w (nth (k mod m) (nouts nd) 0%nat) = false ->
  let w' := fst (Factory.worker_block w p) in
  FactoryBlocks.edges_untouched w w' /\
  wlog w' = wlog w ++ [LSel n true (k mod m); LDiscard (wnow w) n (pit (Factory.me w p))] /\
  ndisc (get_node w' n) = S (ndisc nd).
Proof. exact FactoryBlocks.worker_nonblocking_round_robin_drops. Qed.
Print Assumptions C09_nonblocking_round_robin_worker_drops_at_once.

Theorem C09_nonblocking_round_robin_worker_pushes_to_the_drawn_edge :
  forall w p,
  let n := pown (Factory.me w p) in let nd := get_node w n in
  ppc (Factory.me w p) = 1%nat -> noutsel nd = PRoundRobin -> nblocking nd = false -> nouts nd <> [] ->
  (n < length (wnodes w))%nat -> (p < length (wprocs w))%nat ->
  let k := noutptr nd in let m := length (nouts nd) in
  e_can_put w (nth (k mod m) (nouts nd) 0%nat) = true ->
  let w' := fst (Factory.worker_block w p) in
  FactoryBlocks.edges_untouched w w' /\ wlog w' = wlog w ++ [LSel n true (k mod m)] /\ ndisc (get_node w' n) = ndisc nd /\
  length (wprocs w') = S (length (wprocs w)) /\
  let q := nth (length (wprocs w)) (wprocs w') proc0 in
  pkd q = KPush /\ pown q = n /\ pit q = pit (Factory.me w p) /\ pix q = nth (k mod m) (nouts nd) 0%nat /\ ppc q = 0%nat /\ palive q = true.
Proof. exact FactoryBlocks.worker_nonblocking_round_robin_pushes. Qed.
Print Assumptions C09_nonblocking_round_robin_worker_pushes_to_the_drawn_edge.

(* Splitter and Combiner workers hand over every flow item -- each content item, then the pallet itself (splitter); the packed
   pallet (combiner) -- through one shared dispatch.  Non-blocking, FIRST_AVAILABLE, every world: no out-edge has room => the item
   is dropped in that very step, one discard counted and logged for exactly this item, no edge, item or kernel event touched and no
   process started; some out-edge has room (a Buffer, the only out-edge class these nodes support) => nothing dropped or counted,
   no edge touched, one push process started for exactly this item and the FIRST out-edge with room. *)
Theorem C09_nonblocking_splitter_combiner_drops_at_once :
  forall w p n cur ph,
  let nd := get_node w n in
  noutsel nd = PFirst -> nblocking nd = false -> Factory.first_can_put w (nouts nd) = None -> (n < length (wnodes w))%nat ->
  let w' := fst (Factory.sc_dispatch w p n cur ph) in
  wedges w' = wedges w /\ witems w' = witems w /\
  wlog w' = wlog w ++ [LDiscard (wnow w) n cur] /\
  ndisc (get_node w' n) = S (ndisc nd) /\
  length (wprocs w') = length (wprocs w) /\ wk w' = wk w.
Proof. exact FactoryBlocks.dispatch_nonblocking_drops. Qed.
Print Assumptions C09_nonblocking_splitter_combiner_drops_at_once.

Theorem C09_nonblocking_splitter_combiner_pushes_to_first_with_room :
  forall w p n cur ph e,
  let nd := get_node w n in
  noutsel nd = PFirst -> nblocking nd = false -> Factory.first_can_put w (nouts nd) = Some e -> Factory.is_buffer w e = true ->
  (p < length (wprocs w))%nat ->
  let w' := fst (Factory.sc_dispatch w p n cur ph) in
  wedges w' = wedges w /\ witems w' = witems w /\ wlog w' = wlog w /\ ndisc (get_node w' n) = ndisc nd /\
  length (wprocs w') = S (length (wprocs w)) /\
  let q := nth (length (wprocs w)) (wprocs w') proc0 in
  pkd q = KPush /\ pown q = n /\ pit q = cur /\ pix q = e /\ ppc q = 0%nat /\ palive q = true.
Proof. exact FactoryBlocks.dispatch_nonblocking_pushes. Qed.
Print Assumptions C09_nonblocking_splitter_combiner_pushes_to_first_with_room.

(* where the dispatch is entered: a combiner worker starts with the pallet it was given; a splitter worker goes through the
   contents head first and hands the pallet over last (C16_*: theories/Factory/FactoryBlocks.v) *)
Theorem C09_combiner_worker_dispatches_its_pallet :
  forall w p, ppc (Factory.me w p) = 0%nat ->
  Factory.combworker_block w p =
  Factory.sc_run 64 w p (pown (Factory.me w p)) (Factory.sc_dispatch w p (pown (Factory.me w p)) (pit (Factory.me w p)) 1).
Proof. intros w p H. unfold Factory.combworker_block. rewrite H. reflexivity. Qed.
Print Assumptions C09_combiner_worker_dispatches_its_pallet.

(* Tie B: the non-blocking paths of the node processes, re-read from nodes/*.py on every run (theories/Factory/TieCommit.v): under
   FIRST_AVAILABLE the edge chosen is the first out-edge whose can_put() says yes, the item is pushed exactly when there is one
   and dropped (discard counted) otherwise; under an index policy the drawn edge's can_put() is CALLED.  The model's
   [first_can_put] is that search (C09_model_probe_is_first_with_room), so the block-level theorems above speak about what the
   source does. *)
From FV Require SrcFragments TieCommit.
Theorem C09_probe_loops_regenerated :
  forall l r e,
  SrcFragments.Source_behaviour_probe l = find SrcFragments.ed_can_put l /\
  SrcFragments.Source_behaviour_probe_pushes r = (match r with Some _ => true | None => false end) /\
  SrcFragments.Source_behaviour_index_probe e = SrcFragments.ed_can_put e /\
  SrcFragments.Machine_worker_probe l = find SrcFragments.ed_can_put l /\
  SrcFragments.Machine_worker_probe_pushes r = (match r with Some _ => true | None => false end) /\
  SrcFragments.Machine_worker_index_probe e = SrcFragments.ed_can_put e /\
  SrcFragments.Splitter_worker_probe l = find SrcFragments.ed_can_put l /\
  SrcFragments.Splitter_worker_probe_pushes r = (match r with Some _ => true | None => false end) /\
  SrcFragments.Splitter_worker_index_probe e = SrcFragments.ed_can_put e /\
  SrcFragments.Combiner_worker_probe l = find SrcFragments.ed_can_put l /\
  SrcFragments.Combiner_worker_probe_pushes r = (match r with Some _ => true | None => false end) /\
  SrcFragments.Combiner_worker_index_probe e = SrcFragments.ed_can_put e.
Proof. intros l r e. repeat split. Qed.
Print Assumptions C09_probe_loops_regenerated.

Theorem C09_model_probe_is_first_with_room :
  forall w es, Factory.first_can_put w es =
               option_map SrcFragments.ed_id (find SrcFragments.ed_can_put (map (TieCommit.abs_edge w) es)).
Proof. exact TieCommit.model_probe_is_first_with_room. Qed.
Print Assumptions C09_model_probe_is_first_with_room.
