(* C18 -- counters, time-averaged occupancy and cycle times are truthful.
   Proved: the accumulator of _update_time_averaged_level, after any sequence of level updates at
   non-decreasing integer times and the final update at T, equals the sum over every unit tick
   of [t0, T) of the true occupancy at that tick (the integral of the step function), so the
   reported average is that integral divided by T.  The factory model applies exactly this
   accumulator at every put / get (e_update_level).  Counters and cycle times are compared on
   every explored factory against an independent count from the movement trace. *)
From Coq Require Import List ZArith Bool Arith Lia.
From RecordUpdate Require Import RecordUpdate.
From FV Require Import Kernel Accounting World.
From FV Require Factory FactoryInv FactoryLevel FactoryCount FactoryStamp TieStats StoreB.
From FV Require Import SrcFragments Lens.
From Coq Require Import Sorting.Sorted.
Import ListNotations.
Open Scope Z_scope.

Theorem C18_weighted_sum_is_integral :
  forall t0 n0 l T, wf_levels t0 l -> (forall t n, In (t, n) l -> t <= T) -> t0 <= T ->
    let a := fold_left lacc_step l {| l_sum := 0; l_t := t0; l_n := n0 |} in
    l_sum a + l_n a * (T - l_t a) = tick_sum (level_at n0 l) t0 (Z.to_nat (T - t0)).
Proof. exact weighted_sum_is_integral. Qed.
Print Assumptions C18_weighted_sum_is_integral.

(* the model's edge-level update is this accumulator step *)
Theorem C18_model_level_update :
  forall w e, (e < length (wedges w))%nat ->
    let ed := get_edge w e in
    let ed' := get_edge (e_update_level w e) e in
    let n := Z.of_nat (length (StoreB.transit (est ed)) + length (StoreB.ready (est ed))) in
    {| l_sum := ewsum ed'; l_t := elastt ed'; l_n := elastn ed' |} =
    lacc_step {| l_sum := ewsum ed; l_t := elastt ed; l_n := elastn ed |} (wnow w, n).
Proof.
  intros w e L. unfold e_update_level, get_edge, upd_edge. simpl. rewrite Kernel.nth_upd_same by exact L. reflexivity.
Qed.
Print Assumptions C18_model_level_update.

Example C18_witness :
  let l := [(2, 1); (3, 2); (7, 1)] in
  let a := fold_left lacc_step l {| l_sum := 0; l_t := 0; l_n := 0 |} in
  l_sum a + l_n a * (10 - l_t a) = 12 /\ tick_sum (level_at 0 l) 0 10 = 12.
Proof. vm_compute. auto. Qed.

(* every factory configuration whose edges start empty with a recorded level of 0, every number of
   kernel steps: unless the run has crashed, the level each edge's accumulator is integrating is the
   true number of items in the edge -- the level is re-recorded at every change of occupancy
   (theories/Factory/FactoryLevel.v, lifted through every process block) *)
Theorem C18_recorded_level_is_true_level :
  forall nodes edges order n, Forall FactoryLevel.EOK edges ->
    let w := FactoryInv.iter_fstep n (Factory.mk_world nodes edges order) in
    wcrash w = None ->
    forall i ed, nth_error (wedges w) i = Some ed ->
      elastn ed = Z.of_nat (length (StoreB.transit (est ed)) + length (StoreB.ready (est ed))).
Proof. exact FactoryLevel.recorded_level_is_true_level. Qed.
Print Assumptions C18_recorded_level_is_true_level.

Theorem C18_fresh_edge_ok :
  forall ed, StoreB.transit (est ed) = [] -> StoreB.ready (est ed) = [] -> elastn ed = 0 -> FactoryLevel.EOK ed.
Proof. exact FactoryLevel.fresh_edge_ok. Qed.
Print Assumptions C18_fresh_edge_ok.

(* every factory configuration whose nodes start with zero counters, every number of kernel steps:
   num_item_generated / num_item_discarded / num_item_received of every node are the numbers of
   generation / discard / reception events of that node in the trace (theories/Factory/FactoryCount.v) *)
Theorem C18_counters_are_event_counts :
  forall nodes edges order n,
    (forall nd, In nd nodes -> ngen nd = 0%nat /\ ndisc nd = 0%nat /\ nrecv nd = 0%nat) ->
    let w := FactoryInv.iter_fstep n (Factory.mk_world nodes edges order) in
    forall i, (i < length (wnodes w))%nat ->
      ngen (get_node w i) = FactoryCount.cnt (FactoryCount.is_gen i) (wlog w) /\
      ndisc (get_node w i) = FactoryCount.cnt (FactoryCount.is_disc i) (wlog w) /\
      nrecv (get_node w i) = FactoryCount.cnt (FactoryCount.is_recv i) (wlog w).
Proof. exact FactoryCount.counters_are_event_counts. Qed.
Print Assumptions C18_counters_are_event_counts.

(* every factory configuration whose sinks start with a zero cycle total, every number of kernel steps:
   a sink's total_cycle_time is the sum over the receptions in the trace of reception time minus the creation
   stamp the sink read from the item (an LRecv entry records both) -- theories/Factory/FactoryStamp.v *)
Theorem C18_cycle_time_is_sum :
  forall nodes edges order n,
    (forall nd, In nd nodes -> ncycle nd = 0) ->
    let w := FactoryInv.iter_fstep n (Factory.mk_world nodes edges order) in
    forall i, (i < length (wnodes w))%nat -> ncycle (get_node w i) = FactoryStamp.cyc i (wlog w).
Proof. exact FactoryStamp.cycle_time_is_sum. Qed.
Print Assumptions C18_cycle_time_is_sum.

(* ... every reception recorded in the trace is at or after the creation stamp it reads, and no item carries a
   creation stamp that lies in the future *)
Theorem C18_reception_not_before_creation :
  forall nodes edges order n,
    (forall nd, In nd nodes -> ncycle nd = 0) ->
    let w := FactoryInv.iter_fstep n (Factory.mk_world nodes edges order) in
    Forall FactoryStamp.recv_ok (wlog w) /\ Forall (FactoryStamp.cre_ok (wnow w)) (witems w).
Proof. exact FactoryStamp.reception_not_before_creation. Qed.
Print Assumptions C18_reception_not_before_creation.

(* ... the time stamps of the movement trace (creation, put, get, pack, discard, reception) are non-decreasing
   in trace order and never ahead of the clock: in particular the stamps along one item's route never decrease *)
Theorem C18_trace_times_nondecreasing :
  forall nodes edges order n,
    (forall nd, In nd nodes -> ncycle nd = 0) ->
    let w := FactoryInv.iter_fstep n (Factory.mk_world nodes edges order) in
    StronglySorted Z.le (FactoryStamp.times (wlog w)) /\ Forall (fun t => t <= wnow w) (FactoryStamp.times (wlog w)).
Proof. exact FactoryStamp.trace_times_nondecreasing. Qed.
Print Assumptions C18_trace_times_nondecreasing.

Example C18_cycle_witness :
  FactoryStamp.cyc 3 [LGen 0 0 0; LRecv 5 3 0 1; LRecv 7 2 1 0; LRecv 9 3 2 4] = 9 /\
  FactoryStamp.times [LGen 0 0 0; LSel 1 true 0; LRecv 5 3 0 1] = [0; 5].
Proof. vm_compute. auto. Qed.

(* tie B: the arithmetic of the statistics code, re-translated from the sources on every run: the increment of the
   weighted occupancy sum and the level recorded by _update_time_averaged_level of both stores are the accumulator
   step of C18_weighted_sum_is_integral on the true occupancy, and what Sink.behaviour adds to its cycle total is the
   contribution of a reception to the sum of C18_cycle_time_is_sum *)
Theorem C18_statistics_arithmetic_regenerated :
  (forall a t n, l_sum (lacc_step a (t, n)) = l_sum a + BufferStore_level_increment t (l_t a) (l_n a) /\
                 l_sum (lacc_step a (t, n)) = l_sum a + FleetStore_level_increment t (l_t a) (l_n a)) /\
  (forall s, BufferStore_level_count (lensB s) = Z.of_nat (length (StoreB.transit s) + length (StoreB.ready s)) /\
             FleetStore_level_count (lensB s) = Z.of_nat (length (StoreB.transit s) + length (StoreB.ready s))) /\
  (forall n t i c, FactoryStamp.contrib n (LRecv t n i c) = Sink_cycle_increment t c).
Proof. exact (conj TieStats.level_increment_src (conj TieStats.level_count_src TieStats.sink_cycle_increment_src)). Qed.
Print Assumptions C18_statistics_arithmetic_regenerated.
