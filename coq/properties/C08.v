(* C08 -- a machine holds <= work_capacity items, each for exactly its processing delay.
   Proved here: in every reachable world of every factory configuration no node has more busy
   worker slots than its work_capacity (C08_worker_slots_bounded_everywhere, lifted through every
   process block in theories/Factory/FactoryRes.v); the worker-slot resource (simpy.Resource model)
   never has more users than its capacity, whatever sequence of requests / releases / kernel
   callbacks occurs; the loop heads of Machine.behaviour and Combiner.behaviour touch no edge, no item
   and no trace entry and suspend the process on the slot request they issue -- nothing is reserved
   or pulled before the slot is granted (C08_*_asks_for_slot_first); a delay draw advances the node's delay stream by exactly one.  The timing statements (offer = pull + delay,
   late only if blocked) are carried by the executable factory model, which is compared
   trace-exactly with the real classes; they are not proved for every configuration -- partial. *)
From Coq Require Import List ZArith Bool Arith Lia.
From FV Require Import Kernel World Factory.
From FV Require FactoryInv FactoryRes FactorySlotFirst.
From FV Require SrcFragments TieNodes.
Import ListNotations.

(* every configuration (nodes, edges, construction order) whose nodes start with the resource the
   library creates -- simpy.Resource(capacity = work_capacity), no user -- and every number of
   kernel steps: the resource keeps that capacity and never has more users than work_capacity *)
Theorem C08_worker_slots_bounded_everywhere :
  forall nodes edges order n, Forall FactoryRes.NRok nodes ->
  forall i nd, nth_error (wnodes (FactoryInv.iter_fstep n (mk_world nodes edges order))) i = Some nd ->
    r_cap (nres nd) = nwcap nd /\ (length (r_users (nres nd)) <= nwcap nd)%nat.
Proof. exact FactoryRes.worker_slots_bounded_everywhere. Qed.
Print Assumptions C08_worker_slots_bounded_everywhere.

Theorem C08_fresh_node_ok : forall nd, nres nd = res_init (nwcap nd) -> FactoryRes.NRok nd.
Proof. exact FactoryRes.fresh_node_ok. Qed.
Print Assumptions C08_fresh_node_ok.

Theorem C08_slots_request : forall k rid r k' r' q, res_request k rid r = Some (k', r', q) -> RInv r -> RInv r'.
Proof. exact res_request_inv. Qed.
Print Assumptions C08_slots_request.
Theorem C08_slots_release : forall k rid r q k' r' g, res_release k rid r q = Some (k', r', g) -> RInv r -> RInv r'.
Proof. exact res_release_inv. Qed.
Print Assumptions C08_slots_release.
Theorem C08_slots_trig_put : forall k r k' r', res_trig_put k r = Some (k', r') -> RInv r -> RInv r'.
Proof. exact res_trig_put_inv. Qed.
Print Assumptions C08_slots_trig_put.
Theorem C08_slots_trig_get : forall k r k' r', res_trig_get k r = Some (k', r') -> RInv r -> RInv r'.
Proof. exact res_trig_get_inv. Qed.
Print Assumptions C08_slots_trig_get.

(* exactly one draw per call of get_delay *)
Theorem C08_one_draw :
  forall w n, ndptr (get_node (fst (draw_delay w n)) n) = S (ndptr (get_node w n)) \/ (length (wnodes w) <= n)%nat.
Proof.
  intros w n. destruct (Nat.ltb_spec n (length (wnodes w))) as [L|L]; [left|right; exact L].
  unfold draw_delay, get_node, logw, upd_node. simpl. rewrite nth_upd_same by exact L. reflexivity.
Qed.
Print Assumptions C08_one_draw.

(* slot before pull: the loop head of Machine.behaviour ... *)
Theorem C08_machine_asks_for_slot_first :
  forall w p n, FactorySlotFirst.quiet w (fst (machine_request w p n)) /\ FactorySlotFirst.waits_for_slot (machine_request w p n) p.
Proof. exact FactorySlotFirst.machine_request_slot_first. Qed.
Print Assumptions C08_machine_asks_for_slot_first.

(* ... and of Combiner.behaviour (the order repaired by f4032e8), entered at the end of the set-up period *)
Theorem C08_combiner_asks_for_slot_first :
  forall w p, ppc (me w p) = 1%nat ->
    FactorySlotFirst.quiet w (fst (combiner_block w p)) /\ FactorySlotFirst.waits_for_slot (combiner_block w p) p.
Proof. exact FactorySlotFirst.combiner_after_setup_slot_first. Qed.
Print Assumptions C08_combiner_asks_for_slot_first.

(* ... and again after each finished pallet has been handed to its worker process *)
Theorem C08_combiner_asks_for_slot_first_again :
  forall w p, (6 <= ppc (me w p))%nat ->
    FactorySlotFirst.quiet w (fst (combiner_block w p)) /\ FactorySlotFirst.waits_for_slot (combiner_block w p) p.
Proof. exact FactorySlotFirst.combiner_after_handover_slot_first. Qed.
Print Assumptions C08_combiner_asks_for_slot_first_again.

(* the same order in the source, regenerated on every run (tie B, theories/Nodes/TieNodes.v) *)
Theorem C08_slot_order_regenerated :
  SrcFragments.Machine_slot_before_reserve = true /\ SrcFragments.Combiner_slot_before_reserve = true /\
  SrcFragments.Splitter_slot_before_get = true.
Proof.
  exact (conj TieNodes.machine_slot_before_reserve_src
              (conj TieNodes.combiner_slot_before_reserve_src TieNodes.splitter_slot_before_get_src)).
Qed.
Print Assumptions C08_slot_order_regenerated.

(* the machine worker's first block (it runs in the instant in which the item was pulled; theories/Factory/FactoryBlocks.v,
   every world): it stamps the start of processing with the clock, arms exactly one timer -- due exactly the drawn
   processing delay later --, waits on it, and touches no edge, item or trace entry *)
From FV Require FactoryBlocks.
Theorem C08_worker_arms_the_drawn_delay :
  forall w p,
  ppc (me w p) = 0%nat -> (0 <= pdl (me w p))%Z -> (p < length (wprocs w))%nat ->
  let r := worker_block w p in let w' := fst r in
  wedges w' = wedges w /\ witems w' = witems w /\ wlog w' = wlog w /\
  pt0 (me w' p) = wnow w /\ ppc (me w' p) = 1%nat /\
  exists t, snd r = YEvent t /\ t = length (evs (wk w)) /\
    e_trig (get_ev (wk w') t) = true /\
    In {| q_time := (wnow w + pdl (me w p))%Z; q_prio := NORMAL; q_seq := seq (wk w); q_ev := t |} (queue (wk w')) /\
    length (queue (wk w')) = S (length (queue (wk w))).
Proof. exact FactoryBlocks.worker_arms_the_drawn_delay. Qed.
Print Assumptions C08_worker_arms_the_drawn_delay.

(* tie B: "the delay being drawn exactly once per item": Node.get_delay (and Edge.get_delay, for the buffer delay), re-read from the
   source on every run, advance a generator by one next() and a callable by one call per invocation (theories/Nodes/TieNodes.v);
   the model draws one value per invocation (C08_one_draw) *)
From FV Require TieNodes.
Theorem C08_get_delay_draws_once :
  forall k, SrcFragments.Node_get_delay_draws k = (match k with SrcFragments.DConst => 0 | _ => 1 end)%nat /\
            SrcFragments.Edge_get_delay_draws k = (match k with SrcFragments.DConst => 0 | _ => 1 end)%nat.
Proof. intros k. split; [apply TieNodes.node_get_delay_draws_src|apply TieNodes.edge_get_delay_draws_src]. Qed.
Print Assumptions C08_get_delay_draws_once.
